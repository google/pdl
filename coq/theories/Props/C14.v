(** C14 -- C++ backend.  Proved: the C++ generator's bit-field chunking is the
    reference grouping for every field list (byte-multiple groups, running offsets).
    Conformance of Serialize / GetSize / IsValid / getters and freedom from undefined
    behaviour are decided per run: identical values and byte strings through an
    ASan+UBSan build (assertions on) and an NDEBUG build, compared with the reference;
    any sanitizer report, failed assertion or signal is a violation: `_partial`. *)
From Coq Require Import NArith List Bool.
From PDL Require Import Base.Bits Backends.Chunkers.
Import ListNotations.
Open Scope N_scope.

Theorem C14_cxx_chunking_is_reference_partial :
  forall ws cur off, cxx_chunker ws cur off = ref_groups ws cur off.
Proof. intros. apply shift_chunker_is_reference. Qed.
Print Assumptions C14_cxx_chunking_is_reference_partial.

Theorem C14_cxx_groups_wellformed_partial :
  forall ws gs pend,
    cxx_chunker ws [] 0 = (gs, pend) ->
    Forall (fun g => offsets_ok g 0 = true /\ group_width g mod 8 = 0) gs.
Proof. exact shift_chunker_wellformed. Qed.
Print Assumptions C14_cxx_groups_wellformed_partial.
