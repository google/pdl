(** C13 -- Python backend.  Proved: the Python generator's bit-field chunking
    (parse_bit_field / serialize_bit_field) is the reference grouping for every field
    list; the reference semantics it is compared with satisfies the endianness duality
    (both byte orders are exercised on every run).  Conformance of serialize(), size,
    parse_all and the exception taxonomy is decided per run against the reference
    (correspondence, both endiannesses): `_partial`. *)
From Coq Require Import NArith List Bool.
From PDL Require Import Base.Bits Backends.Chunkers.
Import ListNotations.
Open Scope N_scope.

Theorem C13_python_chunking_is_reference_partial :
  forall ws cur off, python_chunker ws cur off = ref_groups ws cur off.
Proof. intros. apply shift_chunker_is_reference. Qed.
Print Assumptions C13_python_chunking_is_reference_partial.

Theorem C13_python_groups_wellformed_partial :
  forall ws gs pend,
    python_chunker ws [] 0 = (gs, pend) ->
    Forall (fun g => offsets_ok g 0 = true /\ group_width g mod 8 = 0) gs.
Proof. exact shift_chunker_wellformed. Qed.
Print Assumptions C13_python_groups_wellformed_partial.
