(** C15 -- enum conversions are exact over the entire value space (Rust part).
    For every enum declaration the analyzer can accept (no tag value inside an earlier
    range, all values within the width), every width up to 64 and EVERY integer x of
    the backing type: the emitted [TryFrom] returns exactly the reference reading --
    the named tag when one has value x, else the enclosing range, else the default
    variant when the enum is open, carrying x -- and [Err x] otherwise, in particular
    for every x at or above 2^w. Converting back yields x. *)
From Coq Require Import NArith List String Bool.
From PDL Require Import Base.Bits Lang.Ast Lang.Sexp Analyzer.Passes Rust.Enum Proofs.EnumExact
     Proofs.AnalyzerEnum.
Import ListNotations.
Open Scope N_scope.

Theorem C15_rust_try_from_exact :
  forall (tags : list tag) (w bw : N) (c : bool) (x : N),
    wf_tagsb tags = true ->
    tags_bounded (scalar_max w) tags = true ->
    integer_width w = Some bw ->
    enum_is_complete tags (scalar_max w) = Some c ->
    x < 2 ^ bw ->
    rust_enum_try_from tags w x =
    Some (match spec_enum_of_N tags w x with Some e => TOk e | None => TErr x end).
Proof. exact rust_try_from_exact. Qed.
Print Assumptions C15_rust_try_from_exact.

Theorem C15_rust_back_conversion :
  forall (tags : list tag) (w bw : N) (c : bool) (x : N) (e : evariant),
    wf_tagsb tags = true -> tags_bounded (scalar_max w) tags = true ->
    integer_width w = Some bw -> enum_is_complete tags (scalar_max w) = Some c -> x < 2 ^ bw ->
    rust_enum_try_from tags w x = Some (TOk e) -> evariant_to_N e = x.
Proof. exact rust_try_from_back. Qed.
Print Assumptions C15_rust_back_conversion.

(** The same for every enum declaration on which the ANALYZER'S OWN check
    ([check_enum_declaration], the model of analyzer.rs 807-1037, tied to /repo by C08's
    correspondence) reports nothing: the side conditions on the tags are what that check
    establishes (Proofs/AnalyzerEnum.v), so nothing is assumed about the tags any more.
    The two remaining hypotheses say that the generator is defined on the enum (width
    at most 64, at least one value or range tag). *)
Theorem C15_accepted_enums_convert_exactly :
  forall (id : string) (tags : list tag) (w bw : N) (c : bool) (x : N),
    check_enum_declaration (DEnum id tags w) = [] ->
    integer_width w = Some bw ->
    enum_is_complete tags (scalar_max w) = Some c ->
    x < 2 ^ bw ->
    rust_enum_try_from tags w x =
    Some (match spec_enum_of_N tags w x with Some e => TOk e | None => TErr x end).
Proof. exact accepted_enum_exact. Qed.
Print Assumptions C15_accepted_enums_convert_exactly.

(** what the reference reading says, spelled out: success iff declared value, inside a
    range, or open; integers at or above 2^w are rejected *)
Theorem C15_spec_reject_wide :
  forall tags w x, 2 ^ w <= x -> spec_enum_of_N tags w x = None.
Proof. intros tags w x H. unfold spec_enum_of_N. now rewrite (proj2 (N.leb_le _ _) H). Qed.
Print Assumptions C15_spec_reject_wide.

(** Non-vacuity: the hypotheses hold for the reference manual's CoffeeAddition-like enum,
    and the theorem's conclusion computes to the expected variants. *)
Definition coffee : list tag :=
  [TagValue "Empty" 0;
   TagRange "NonAlcoholic" 1 9 [("Cream", 1); ("Vanilla", 2); ("Chocolate", 3)];
   TagRange "Alcoholic" 10 19 [("Whisky", 10); ("Rum", 11)];
   TagRange "Custom" 20 29 [];
   TagOther "Other"].

Example C15_hypotheses_hold :
  wf_tagsb coffee = true /\ tags_bounded (scalar_max 5) coffee = true
  /\ integer_width 5 = Some 8 /\ enum_is_complete coffee (scalar_max 5) = Some false
  /\ check_enum_declaration (DEnum "CoffeeAddition" coffee 5) = [].
Proof. repeat split. Qed.

Example C15_values :
  rust_enum_try_from coffee 5 2 = Some (TOk (ENamed "Vanilla" 2))
  /\ rust_enum_try_from coffee 5 7 = Some (TOk (ERange "NonAlcoholic" 7))
  /\ rust_enum_try_from coffee 5 31 = Some (TOk (EOther "Other" 31))
  /\ rust_enum_try_from coffee 5 32 = Some (TErr 32).
Proof. repeat split. Qed.
