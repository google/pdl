(** C09 -- acceptance does not depend on presentation.  Proved: every lookup of a
    declaration by identifier -- the only way the analyzer and the backends reach
    another declaration -- is independent of the order of the declarations as soon as
    identifiers are distinct (which Scope::new enforces, C08), for any two
    permutations of the same declarations.  Verdict, code set, analyzed declarations
    under permutations, and group inlining vs. inlined text (incl. generated code) are
    decided per run on the implementation: `_partial`. *)
From Coq Require Import NArith List String Bool Permutation.
From PDL Require Import Base.Bits Lang.Ast Lang.Sexp Analyzer.Passes Proofs.AnalyzerSound.
Import ListNotations.

Theorem C09_lookups_do_not_depend_on_declaration_order_partial :
  forall e e' ds ds' id,
    NoDup (decl_id_list ds) -> Permutation ds ds' ->
    lookup_decl (mkFile e ds) id = lookup_decl (mkFile e' ds') id.
Proof. exact lookup_decl_order_independent. Qed.
Print Assumptions C09_lookups_do_not_depend_on_declaration_order_partial.

Theorem C09_distinct_identifiers_is_what_scope_new_checks_partial :
  forall file, scope_new file = [] <-> NoDup (decl_id_list (f_decls file)).
Proof. exact scope_new_nodup. Qed.
Print Assumptions C09_distinct_identifiers_is_what_scope_new_checks_partial.
