(** C19 -- Java backend.  Proved: ByteAligner (backends/common/alignment.rs) computes
    the reference grouping for every list of positive widths whose groups stay within
    64 bits, and panics on no such list; unsigned extraction `(x >>> s) & mask` over a
    two's-complement long is the reference field extraction for every shift and width
    up to 64 (the 63/64-bit cases included).  Conformance of the generated classes is
    decided per run against the reference (correspondence): `_partial`. *)
From Coq Require Import NArith List Bool.
From PDL Require Import Base.Bits Backends.Chunkers.
Import ListNotations.
Open Scope N_scope.

Theorem C19_aligner_is_reference_partial :
  forall ws cur off,
    Forall (fun w => 0 < w) ws ->
    groups_within 64 ws off = true ->
    java_aligner ws cur off = Some (ref_groups ws cur off).
Proof. exact java_aligner_is_reference. Qed.
Print Assumptions C19_aligner_is_reference_partial.

(** A Java long holding the unsigned chunk value [u] is the signed integer
    [u] or [u - 2^64]; [>>>] and [&] act on its 64-bit pattern, i.e. on [u]. *)
Definition java_ushr_and (u s w : N) : N := N.land (N.shiftr (u mod 2 ^ 64) s) (N.ones w).

Theorem C19_unsigned_extraction_partial :
  forall u s w, u < 2 ^ 64 -> java_ushr_and u s w = extract s w u.
Proof.
  intros u s w Hu. unfold java_ushr_and, extract.
  rewrite (N.mod_small u) by exact Hu.
  rewrite N.shiftr_div_pow2, N.land_ones. reflexivity.
Qed.
Print Assumptions C19_unsigned_extraction_partial.
