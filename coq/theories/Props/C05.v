(** C05 -- the encoder never truncates.  Proved for all inputs: a packed chunk never
    exceeds its chunk type whatever the (possibly out-of-range) field values are, and
    the bytes written for a chunk are exactly its declared octets -- so an
    out-of-range value can never spill into a neighbouring group, only into the bits
    of its own group, which is what the emitted range checks guard.  Where the
    generator emits no check (listed findings F06, F07) the model truncates exactly as
    the emitted casts do; "error iff out of range" and "bytes = encoded_len" for whole
    declarations are compared with the reference on every run: `_partial`.
    For whole declarations of the bit-field fragment both halves are theorems (below):
    no run-time panic for ANY value, and reference bytes whenever the reference has an
    encoding. *)
From Coq Require Import NArith List String Bool.
From Coq Require Import Strings.Byte.
From PDL Require Import Base.Bits Base.Outcome Lang.Ast Lang.Sexp Analyzer.Schema Sem.RefEncode Rust.Encode
     Proofs.DecodeSafe Proofs.Pack Proofs.BitfieldEncode Proofs.EncodeRef Proofs.EncodeSafe Proofs.SchemaEnums Proofs.EncodedLen Proofs.EncodeSafeAll Proofs.EncodeSafeDecl.
Import ListNotations.
Open Scope N_scope.

Theorem C05_chunk_never_exceeds_its_type_partial :
  forall (cw : N) (p : pending), pack_value cw p < 2 ^ cw.
Proof. exact pack_value_lt. Qed.
Print Assumptions C05_chunk_never_exceeds_its_type_partial.

Theorem C05_chunk_bytes_written_partial :
  forall (fl : file) (bits v : N), List.length (put_chunk fl bits v) = N.to_nat (bits / 8).
Proof. exact put_chunk_length. Qed.
Print Assumptions C05_chunk_bytes_written_partial.

Example C05_example : pack_value 8 [(300, 16, 4)] < 2 ^ 8.
Proof. apply C05_chunk_never_exceeds_its_type_partial. Qed.

(** Whole declarations of the bit-field fragment (scalars, enums, fixed, reserved in any
    composition), ANY value -- in range, out of range or ill-typed: the emitted encoder
    yields bytes, an EncodeError or a refusal of the generator; it never panics at run time. *)
Theorem C05_bitfield_declarations_never_panic :
  forall (fuel : nat) (fl : file) (sch : schema) (id : string) (d : decl) (v : value),
    lookup_decl fl id = Some d ->
    root_of_fragment fl d ->
    no_rt_panic (rust_encode (S fuel) fl sch id v).
Proof. exact rust_encode_fragment_nrp. Qed.
Print Assumptions C05_bitfield_declarations_never_panic.

(** ... and when the value is one the reference can encode, the bytes are the reference's
    (no truncation): this is C03's theorem, restated here because it is the other half *)
Theorem C05_bitfield_declarations_do_not_truncate :
  forall (fuel : nat) (fl : file) (sch : schema) (id : string) (d : decl) (v : value) (bs : list byte),
    schema_knows_enums fl sch ->
    lookup_decl fl id = Some d ->
    root_of_fragment fl d ->
    ref_encode (S fuel) fl id v = Some bs ->
    good (rust_encode (S fuel) fl sch id v) bs.
Proof. exact rust_encode_fragment. Qed.
Print Assumptions C05_bitfield_declarations_do_not_truncate.

(** LENGTH AS PROMISED (Proofs/EncodedLen.v): "whenever encode succeeds, the number of bytes
    written equals encoded_len()".  Field level, for EVERY field kind the encoder handles
    (all bit-field kinds incl. flags, size / count / element-size fields; optional scalar,
    enum and struct fields; payload / body; padding; typedef fields; scalar, enum and struct
    arrays, padded or not), any pending bit-fields and shift: the bytes [enc_fields] writes
    are as many as [len_fields] computes.  [Hrec] / [Hstatic] are the induction hypotheses
    for nested struct types, [Hpay] says the payload action writes payload_size octets. *)
Theorem C05_fields_write_what_encoded_len_computes :
  forall (fl : file) (sch : schema) (rec_enc : string -> value -> eres (list byte))
         (rec_len : string -> value -> option N) (d : decl) (all_fields : list field)
         (cs : list constr) (obj : list (string * value)) (payload_act : eres (list byte))
         (payload_size : N) (T : string -> Prop),
    schema_knows_enums fl sch ->
    schema_knows_customs fl sch ->
    (forall tid v bs, T tid -> rec_enc tid v = Ok bs -> rec_len tid v = Some (len bs)) ->
    (forall tid v bs w, T tid -> rec_enc tid v = Ok bs -> type_static_bits sch tid = Some w -> len bs = w / 8) ->
    (forall pl, payload_act = Ok pl -> len pl = payload_size) ->
    forall (fs : list field) (p : pending) (shift : N) (bs : list byte),
      cls fl T fs ->
      enc_fields fl sch rec_enc rec_len d all_fields cs obj payload_act payload_size fs p shift = Ok bs ->
      len_fields fl sch rec_len d obj payload_size fs shift = Some (len bs).
Proof. exact enc_fields_len. Qed.
Print Assumptions C05_fields_write_what_encoded_len_computes.

(** Whole declarations WITH THEIR PARENTS, real schema, nothing assumed about emitted code:
    every declaration whose inheritance chain reaches no struct / unsized custom type. *)
Theorem C05_encoded_len_is_the_number_of_bytes_written :
  forall (fuel : nat) (fl : file) (sch : schema) (id : string) (d : decl) (v : value) (bs : list byte),
    enum_widths_fit fl = true -> custom_widths_fit fl = true -> mk_schema fl = Some sch ->
    lookup_decl fl id = Some d ->
    chain_rec_free fuel fl d = true ->
    rust_encode fuel fl sch id v = Ok bs ->
    rust_encoded_len fuel fl sch id v = Some (len bs).
Proof. exact rust_encode_len_real_schema. Qed.
Print Assumptions C05_encoded_len_is_the_number_of_bytes_written.

(** ... and EVERY declaration (nested, array and optional structs, parents) of a file in
    which no struct or packet has a static size. *)
Theorem C05_encoded_len_is_the_number_of_bytes_written_dynamic_structs :
  forall (fuel : nat) (fl : file) (sch : schema) (id : string) (v : value) (bs : list byte),
    enum_widths_fit fl = true -> custom_widths_fit fl = true -> mk_schema fl = Some sch ->
    file_arrs_wf fl = true -> no_static_structs fl sch = true ->
    rust_encode fuel fl sch id v = Ok bs ->
    rust_encoded_len fuel fl sch id v = Some (len bs).
Proof. exact rust_encode_len_dynamic_structs. Qed.
Print Assumptions C05_encoded_len_is_the_number_of_bytes_written_dynamic_structs.

(** ENCODE NEVER PANICS, all field kinds (Proofs/EncodeSafeAll.v): optional scalar / enum /
    struct fields, flags, size / count / element-size fields, scalars, fixed fields, typedefs,
    reserved bits, arrays with and without padding, payload / body, padding -- for ANY value
    (in range, out of range, ill-typed), pending bit-fields and shift, provided the encoders
    of nested struct types and the payload action do not panic at run time.  [arith_free]
    excludes exactly the two places where the GENERATOR (a debug build of pdlc) overflows:
    a 64-bit `_size_` / `_elementsize_` field (finding F44) and a condition value above 1. *)
Theorem C05_no_runtime_panic_for_every_field_kind :
  forall (fl : file) (sch : schema) (rec_enc : string -> value -> eres (list byte))
         (rec_len : string -> value -> option N) (d : decl) (all_fields : list field)
         (cs : list constr) (obj : list (string * value)) (payload_act : eres (list byte))
         (payload_size : N),
    (forall t v, no_rt_panic (rec_enc t v)) ->
    no_rt_panic payload_act ->
    forall (fs : list field) (p : pending) (shift : N),
      forallb arith_free fs = true ->
      no_rt_panic (enc_fields fl sch rec_enc rec_len d all_fields cs obj payload_act payload_size fs p shift).
Proof. exact enc_fields_all_nrp. Qed.
Print Assumptions C05_no_runtime_panic_for_every_field_kind.

(** ... lifted to WHOLE DECLARATIONS with their parents and nested structs, by induction on
    fuel (Proofs/EncodeSafeDecl.v): for every file without a 64-bit `_size_` / `_elementsize_`
    field and without a condition value above 1, every type of it and ANY value, encode never
    panics at run time.  [side_condition_needed] shows the side condition is necessary (F44). *)
Theorem C05_encode_never_panics_at_run_time :
  forall (fuel : nat) (fl : file) (sch : schema) (id : string) (v : value),
    arith_free_file fl = true -> no_rt_panic (rust_encode fuel fl sch id v).
Proof. exact rust_encode_nrp. Qed.
Print Assumptions C05_encode_never_panics_at_run_time.
