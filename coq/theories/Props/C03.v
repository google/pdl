(** C03 -- the Rust encoder emits exactly the reference wire format.
    Proved for all inputs: the bit-field group kernel.  For ANY list of fields (value,
    declared width, Rust type width) with in-range values and a total of at most the
    chunk width (<= 64): what [pack_bit_fields] ORs together out of casts and shifts and
    [put_uint] writes is the LSB-first sum of the group written in the file's byte
    order -- the group encoding of doc/reference.md.  The lift over the field list of
    whole declarations (arrays, sizes, structs, inheritance) is established by the
    correspondence check, not yet by a closed theorem: hence `_partial`. *)
From Coq Require Import NArith List String Bool.
From Coq Require Import Strings.Byte.
From PDL Require Import Base.Bits Base.Outcome Lang.Ast Lang.Sexp Analyzer.Schema Sem.RefEncode Rust.Encode Proofs.Pack Proofs.BitfieldEncode Proofs.EncodeRef Proofs.SchemaEnums Proofs.ArrayEncode Proofs.OptionalEncode.
Import ListNotations.
Open Scope N_scope.

Theorem C03_pack_is_lsb_first_sum_partial :
  forall (fs : list (N * N * N)) (sh cw : N),
    Forall entry_ok fs ->
    sh + group_bits (strip fs) <= cw ->
    pack_value cw (pending_of fs sh) = group_sum (strip fs) sh.
Proof. exact pack_value_sum. Qed.
Print Assumptions C03_pack_is_lsb_first_sum_partial.

Theorem C03_group_bytes_are_reference_partial :
  forall (fl : file) (fs : list (N * N * N)) (cw : N),
    Forall entry_ok fs ->
    group_bits (strip fs) <= cw ->
    put_chunk fl (group_bits (strip fs)) (pack_value cw (pending_of fs 0)) =
    bytes_E (f_endian fl) (nbytes (group_bits (strip fs))) (group_sum (strip fs) 0).
Proof. exact put_chunk_group. Qed.
Print Assumptions C03_group_bytes_are_reference_partial.

(** Whole declarations of the bit-field fragment (root packets / structs whose fields are
    scalars, enum typedefs, fixed fields and reserved bits in ANY composition and order),
    every value, both byte orders, every fuel: whenever the reference has an encoding,
    the emitted encoder returns exactly those bytes -- or pdlc refused to generate the
    declaration at all (a group wider than 64 bits: the generator panic, C10's
    business).  It never returns other bytes and never an EncodeError. *)
Theorem C03_bitfield_declarations_encode_as_reference :
  forall (fuel : nat) (fl : file) (sch : schema) (id : string) (d : decl) (v : value) (bs : list byte),
    schema_knows_enums fl sch ->
    lookup_decl fl id = Some d ->
    root_of_fragment fl d ->
    ref_encode (S fuel) fl id v = Some bs ->
    match rust_encode (S fuel) fl sch id v with
    | Ok out => out = bs
    | Panic GenAssert => True
    | _ => False
    end.
Proof. exact rust_encode_fragment. Qed.
Print Assumptions C03_bitfield_declarations_encode_as_reference.

(** The same with NOTHING assumed about the schema: [sch] is the one the model of
    [Schema::new] computes for the file (Proofs/SchemaEnums.v: [mk_schema] records every
    enum with its width, whatever the order and even with duplicate identifiers). *)
Theorem C03_bitfield_declarations_encode_as_reference_real_schema :
  forall (fuel : nat) (fl : file) (sch : schema) (id : string) (d : decl) (v : value) (bs : list byte),
    enum_widths_fit fl = true -> Analyzer.Schema.mk_schema fl = Some sch ->
    lookup_decl fl id = Some d ->
    root_of_fragment fl d ->
    ref_encode (S fuel) fl id v = Some bs ->
    match rust_encode (S fuel) fl sch id v with
    | Ok out => out = bs
    | Panic GenAssert => True
    | _ => False
    end.
Proof. exact rust_encode_fragment_real_schema. Qed.
Print Assumptions C03_bitfield_declarations_encode_as_reference_real_schema.

(** SIZE AND COUNT FIELDS AND ARRAYS (Proofs/ArrayEncode.v).  Root declarations whose fields
    are bit-fields, `_count_` fields, `_size_` fields of arrays (narrower than 64 bits, array
    without size modifier), arrays of scalar or enum elements with a static count, a size or a
    count field or none, and `_padding_`: whenever the reference has an encoding, the emitted
    encoder returns exactly those bytes -- the size field carries the octet size, the count
    field the element count, the padding is zero -- or pdlc refused the declaration. *)
Theorem C03_sizes_counts_and_arrays_encode_as_reference :
  forall (fuel : nat) (fl : file) (sch : schema) (id : string) (d : decl) (v : value) (bs : list byte),
    enum_widths_fit fl = true -> Analyzer.Schema.mk_schema fl = Some sch ->
    lookup_decl fl id = Some d ->
    root_of_array_fragment fl d ->
    ref_encode (S fuel) fl id v = Some bs ->
    match rust_encode (S fuel) fl sch id v with
    | Ok out => out = bs
    | Panic GenAssert => True
    | _ => False
    end.
Proof. exact rust_encode_array_fragment_real_schema. Qed.
Print Assumptions C03_sizes_counts_and_arrays_encode_as_reference.

(** The side condition "array without size modifier" is there because the full statement is
    FALSE of the faithful model: for `packet M { _size_(x):8, x:8[+2] }` and x = [1, 2] the
    reference writes the size 04 (octet size plus modifier), the emitted Rust encoder 02
    (encoder.rs: "TODO: size modifier"; the Python and C++ backends do add it).  Listed
    finding F63; this is the witness. *)
Theorem C03_array_size_modifier_refuted :
  exists sch, Analyzer.Schema.mk_schema mod_file = Some sch /\
    ref_encode 5 mod_file "M" (VObj [("x", VList [VNum 1; VNum 2])]) = Some [x04; x01; x02] /\
    rust_encode 5 mod_file sch "M" (VObj [("x", VList [VNum 1; VNum 2])]) = Outcome.Ok [x02; x01; x02].
Proof. exact size_modifier_counter_example. Qed.
Print Assumptions C03_array_size_modifier_refuted.

(** OPTIONAL FIELDS AND THEIR FLAGS (Proofs/OptionalEncode.v): root declarations of
    bit-fields, condition flags and optional scalar / enum fields.  Whenever the reference has
    an encoding -- which forces the presence pattern to be consistent and the condition values
    to be 0 or 1 -- the emitted encoder returns exactly the reference bytes: the flag takes
    the condition value iff the field is present, whichever of several fields sharing the
    flag is looked at, and an absent field contributes nothing. *)
Theorem C03_flags_and_optional_fields_encode_as_reference :
  forall (fuel : nat) (fl : file) (sch : schema) (id : string) (d : decl) (v : value) (bs : list byte),
    schema_knows_enums fl sch ->
    lookup_decl fl id = Some d ->
    root_of_optional_fragment fl d ->
    ref_encode (S fuel) fl id v = Some bs ->
    match rust_encode (S fuel) fl sch id v with
    | Ok out => out = bs
    | Panic GenAssert => True
    | _ => False
    end.
Proof. exact rust_encode_optional. Qed.
Print Assumptions C03_flags_and_optional_fields_encode_as_reference.

(** the model and the reference agree on a concrete mixed declaration (computed) *)
Definition c03_file : file :=
  mkFile BigEndian
    [DEnum "E" [TagValue "A" 1; TagValue "B" 2] 3;
     DPacket "P" [] [mkField (Scalar "a" 5) None; mkField (Typedef "e" "E") None;
                     mkField (Size "x" 4) None; mkField (Reserved 4) None;
                     mkField (Array "x" (Some 16) None None None) None] None].
Definition c03_value : value := VObj [("a", VNum 21); ("e", VNum 2); ("x", VList [VNum 258; VNum 772])].

Example C03_agree_on_example :
  exists sch, Analyzer.Schema.mk_schema c03_file = Some sch /\
  rust_encode 5 c03_file sch "P" c03_value = Outcome.Ok [x55; x04; x01; x02; x03; x04] /\
  ref_encode 5 c03_file "P" c03_value = Some [x55; x04; x01; x02; x03; x04].
Proof. eexists. split; [reflexivity|]. split; reflexivity. Qed.
