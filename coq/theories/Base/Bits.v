(** Bit-level arithmetic on [N]: the shift / mask / or idioms of generated code
    expressed as plain arithmetic, and byte strings in both byte orders. *)
From Coq Require Import NArith ZArith List Lia ZifyN ZifyBool Bool.
From Coq Require Import Strings.Byte.
Import ListNotations.
Open Scope N_scope.

(* ZifyBool installs a hook that makes every [lia] case-split on each boolean atom of its
   context; no proof here needs that and every [lia] in every file would pay for it.
   Division and modulo on [N] are handled by the flag ZifyN sets, not by this hook. *)
Ltac Zify.zify_post_hook ::= idtac.

(* [cbn] and [simpl] leave arithmetic on [N] alone, here and in every file that imports
   this one: unfolded on open terms it turns into matches on binary digits that no lemma of
   the library applies to. *)
Arguments N.add : simpl never.
Arguments N.sub : simpl never.
Arguments N.mul : simpl never.
Arguments N.div : simpl never.
Arguments N.modulo : simpl never.
Arguments N.pow : simpl never.
Arguments N.shiftl : simpl never.
Arguments N.shiftr : simpl never.
Arguments N.lor : simpl never.
Arguments N.land : simpl never.
Arguments N.eqb : simpl never.
Arguments N.ltb : simpl never.
Arguments N.leb : simpl never.

Definition byte_of_N (n : N) : byte :=
  match Byte.of_N (n mod 256) with Some b => b | None => x00 end.

Lemma byte_to_N_lt b : Byte.to_N b < 256.
Proof. pose proof (Byte.to_N_bounded b). lia. Qed.

Lemma to_N_byte_of_N n : Byte.to_N (byte_of_N n) = n mod 256.
Proof.
  unfold byte_of_N. destruct (Byte.of_N (n mod 256)) eqn:E; [now apply Byte.to_of_N|].
  apply Byte.of_N_None_iff in E. lia.
Qed.

Lemma byte_of_N_to_N b : byte_of_N (Byte.to_N b) = b.
Proof.
  unfold byte_of_N. rewrite N.mod_small by apply byte_to_N_lt.
  rewrite Byte.of_to_N. reflexivity.
Qed.

Fixpoint le_bytes (n : nat) (v : N) : list byte :=
  match n with
  | O => []
  | S n' => byte_of_N v :: le_bytes n' (v / 256)
  end.

Definition be_bytes (n : nat) (v : N) : list byte := rev (le_bytes n v).

Fixpoint of_le (bs : list byte) : N :=
  match bs with
  | [] => 0
  | b :: bs' => Byte.to_N b + 256 * of_le bs'
  end.

Definition of_be (bs : list byte) : N := of_le (rev bs).

Lemma le_bytes_length n v : length (le_bytes n v) = n.
Proof. revert v; induction n as [|n IH]; intros v; simpl; [reflexivity| now rewrite IH]. Qed.

Lemma be_bytes_length n v : length (be_bytes n v) = n.
Proof. unfold be_bytes. now rewrite rev_length, le_bytes_length. Qed.

Lemma of_le_le_bytes n v : of_le (le_bytes n v) = v mod 256 ^ N.of_nat n.
Proof.
  revert v; induction n as [|n IH]; intros v.
  - simpl. rewrite N.pow_0_r, N.mod_1_r. reflexivity.
  - cbn [le_bytes of_le]. rewrite to_N_byte_of_N, IH, Nat2N.inj_succ, N.pow_succ_r'.
    rewrite (N.mod_mul_r v 256) by (try apply N.pow_nonzero; lia). lia.
Qed.

Lemma of_le_le_bytes_small n v : v < 256 ^ N.of_nat n -> of_le (le_bytes n v) = v.
Proof. intros H. rewrite of_le_le_bytes. now apply N.mod_small. Qed.

Lemma of_be_be_bytes n v : of_be (be_bytes n v) = v mod 256 ^ N.of_nat n.
Proof. unfold of_be, be_bytes. rewrite rev_involutive. apply of_le_le_bytes. Qed.

Lemma of_le_lt bs : of_le bs < 256 ^ N.of_nat (length bs).
Proof.
  induction bs as [|b bs IH].
  - simpl. rewrite N.pow_0_r. lia.
  - cbn [of_le length].
    replace (N.of_nat (S (length bs))) with (N.succ (N.of_nat (length bs))) by lia.
    rewrite N.pow_succ_r'. pose proof (byte_to_N_lt b). lia.
Qed.

Lemma le_bytes_of_le bs : le_bytes (length bs) (of_le bs) = bs.
Proof.
  induction bs as [|b bs IH]; [reflexivity|].
  cbn [length le_bytes of_le]. pose proof (byte_to_N_lt b) as Hb.
  replace (_ / 256) with (of_le bs) by lia. rewrite IH. f_equal.
  unfold byte_of_N. replace (_ mod 256) with (Byte.to_N b) by lia. now rewrite Byte.of_to_N.
Qed.

Lemma le_bytes_mod n v : le_bytes n (v mod 256 ^ N.of_nat n) = le_bytes n v.
Proof.
  rewrite <- (of_le_le_bytes n v). rewrite <- (le_bytes_length n v) at 1. apply le_bytes_of_le.
Qed.

Lemma lor_shiftl_add a b s : a < 2 ^ s -> N.lor a (N.shiftl b s) = a + b * 2 ^ s.
Proof.
  intros Ha.
  assert (Hland : N.land a (N.shiftl b s) = 0).
  { apply N.bits_inj_0. intros n. rewrite N.land_spec.
    destruct (N.lt_ge_cases n s) as [Hn|Hn].
    - rewrite (N.shiftl_spec_low b s n Hn). apply andb_false_r.
    - replace a with (a mod 2 ^ s) by (now apply N.mod_small).
      rewrite N.mod_pow2_bits_high by exact Hn. reflexivity. }
  rewrite <- N.lxor_lor, <- N.add_nocarry_lxor by exact Hland. now rewrite N.shiftl_mul_pow2.
Qed.

Lemma ones_eq w : N.ones w = 2 ^ w - 1.
Proof. rewrite N.ones_equiv. lia. Qed.

Lemma pow2_pos w : 0 < 2 ^ w.
Proof. apply N.neq_0_lt_0. apply N.pow_nonzero. lia. Qed.

Lemma pow2_le_mono a b : a <= b -> 2 ^ a <= 2 ^ b.
Proof. intros. apply N.pow_le_mono_r; lia. Qed.

Lemma pow2_add a b : 2 ^ (a + b) = 2 ^ a * 2 ^ b.
Proof. apply N.pow_add_r. Qed.

Lemma pow256 n : 256 ^ n = 2 ^ (8 * n).
Proof. rewrite N.pow_mul_r. reflexivity. Qed.

(** [extract s w x]: the [w]-bit field found [s] bits above the least
    significant bit of [x]. *)
Definition extract (s w x : N) : N := (x / 2 ^ s) mod 2 ^ w.

Lemma extract_add_low a b s w : a < 2 ^ s -> extract s w (a + b * 2 ^ s) = b mod 2 ^ w.
Proof.
  intros Ha. unfold extract.
  pose proof (pow2_pos s).
  rewrite N.div_add by lia. rewrite N.div_small by exact Ha. now rewrite N.add_0_l.
Qed.

Lemma extract_0_small a b w : a < 2 ^ w -> extract 0 w (a + b * 2 ^ w) = a.
Proof.
  intros Ha. unfold extract. rewrite N.pow_0_r, N.div_1_r.
  pose proof (pow2_pos w).
  rewrite N.mod_add by lia. now apply N.mod_small.
Qed.

Lemma sum_lt_pow a b s w : a < 2 ^ s -> b < 2 ^ w -> a + b * 2 ^ s < 2 ^ (s + w).
Proof.
  intros Ha Hb. rewrite N.pow_add_r.
  (* a + b * 2^s < (b + 1) * 2^s <= 2^w * 2^s *)
  apply N.lt_le_trans with ((b + 1) * 2 ^ s); [lia|].
  rewrite (N.mul_comm (2 ^ s)). apply N.mul_le_mono_r. lia.
Qed.

Lemma lor_lt_pow2 a b n : a < 2 ^ n -> b < 2 ^ n -> N.lor a b < 2 ^ n.
Proof.
  intros Ha Hb. rewrite <- (N.mod_small a (2 ^ n) Ha), <- (N.mod_small b (2 ^ n) Hb).
  (* both are their own low [n] bits, and masking distributes over [lor] *)
  rewrite <- !N.land_ones, <- N.land_lor_distr_l, N.land_ones.
  apply N.mod_lt. pose proof (pow2_pos n). lia.
Qed.

