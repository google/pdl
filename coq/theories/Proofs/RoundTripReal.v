(** The round trip of [RoundTrip.v] for the schema the analyzer really computes ([mk_schema],
    the model of [Schema::new]) and for enums on which the analyzer's own enum check is
    silent: no hypothesis is left about an arbitrary schema or about the enum conversions. *)
From Coq Require Import NArith List String Bool.
From Coq Require Import Strings.Byte.
From PDL Require Import Base.Bits Base.Outcome Lang.Ast Lang.Sexp Analyzer.Schema Analyzer.Passes Rust.Enum
     Sem.RefEncode Rust.Encode Rust.Decode Proofs.GenPre Proofs.BitfieldEncode
     Proofs.AnalyzerEnum Proofs.RoundTrip Proofs.SchemaEnums.
Import ListNotations.
Open Scope N_scope.

(** every enum of the file passes the analyzer's enum check and is one the Rust generator
    is defined on (width at most 64, at least one value or range tag) *)
Definition enums_accepted (fl : file) : Prop :=
  forall tid i tags w,
    lookup_decl fl tid = Some (DEnum i tags w) ->
    check_enum_declaration (DEnum i tags w) = []
    /\ integer_width w <> None /\ enum_is_complete tags (scalar_max w) <> None.

(** such enums are exact (from C15): below [2 ^ w] the emitted [TryFrom] and the reference
    read the same variants *)
Lemma accepted_try_from fl :
  enums_accepted fl ->
  forall tid i tags w x,
    lookup_decl fl tid = Some (DEnum i tags w) -> x < 2 ^ w ->
    rust_enum_try_from tags w x
    = Some (match spec_enum_of_N tags w x with Some e => TOk e | None => TErr x end).
Proof.
  intros H tid i tags w x Hl Hx.
  destruct (H tid i tags w Hl) as [Hacc [Hw Hc]].
  destruct (integer_width w) as [bw|] eqn:Ebw; [|contradiction].
  destruct (enum_is_complete tags (scalar_max w)) as [c|] eqn:Ec; [|contradiction].
  apply (accepted_enum_exact i tags w bw c x Hacc Ebw Ec).
  eapply N.lt_le_trans; [exact Hx | apply pow2_le_mono, (integer_width_bounds _ _ Ebw)].
Qed.

Lemma accepted_enums_exact fl : enums_accepted fl -> enums_exact fl.
Proof.
  intros H tid i tags w x e Hl Hsp. exists e.
  rewrite (accepted_try_from fl H tid i tags w x Hl), Hsp; [reflexivity|].
  unfold spec_enum_of_N in Hsp. destruct (2 ^ w <=? x) eqn:E; [discriminate|]. now apply N.leb_gt.
Qed.

Theorem rust_roundtrip_fragment_real_schema fuel fuel' oc fl sch id d o bs tl :
  enum_widths_fit fl = true -> mk_schema fl = Some sch ->
  enums_accepted fl ->
  lookup_decl fl id = Some d ->
  root_of_fragment fl d ->
  canonical_obj o (decl_fields d) ->
  ref_encode (S fuel) fl id (VObj o) = Some bs ->
  match rust_encode (S fuel) fl sch id (VObj o) with
  | Ok bs' =>
      bs' = bs /\
      gooddec (rust_decode (S fuel') oc fl sch id (bs' ++ tl)) (fun r => r = (VObj o, tl))
  | Panic GenAssert => True
  | _ => False
  end.
Proof.
  intros Hw Hs He. apply rust_roundtrip_fragment.
  - apply mk_schema_knows_enums; assumption.
  - apply accepted_enums_exact. exact He.
Qed.

Theorem rust_decode_accepts_reference_real_schema fuel oc fl sch refrec d all_fields o payload ss tl :
  enum_widths_fit fl = true -> mk_schema fl = Some sch ->
  enums_accepted fl ->
  get_parent fl d = None ->
  forallb (bf_field fl) (decl_fields d) = true ->
  ref_enc_fields fl refrec d all_fields [] o payload (decl_fields d) 0 0 = Some ss ->
  gooddec (rust_dec_decl (S fuel) oc fl sch d (render (f_endian fl) ss ++ tl))
          (fun r => r = (VObj (vals_of o (decl_fields d)), tl)).
Proof.
  intros Hw Hs He. apply rust_dec_decl_reference.
  - apply mk_schema_knows_enums; assumption.
  - apply accepted_enums_exact. exact He.
Qed.
