(** Facts about Rust/Enum.v: the ladder [integer_width] of Rust integer types (at least as
    wide as the field, none beyond 64 bits), which the encoder and decoder proofs share,
    and when the generator's enum code panics: exactly when the enum is wider than 64 bits
    or has no value / range tag at all (the [unwrap] in enum_is_complete). *)
From Coq Require Import NArith List Lia Permutation.
From PDL Require Import Rust.Enum.
Import ListNotations.
Open Scope N_scope.

Lemma insert_sorted_perm x l : Permutation (x :: l) (insert_sorted x l).
Proof.
  induction l as [|y l IH]; cbn [insert_sorted]; [reflexivity|].
  destruct (pair_leb x y); [reflexivity|]. rewrite perm_swap. apply perm_skip. exact IH.
Qed.

Lemma sort_pairs_perm l : Permutation l (sort_pairs l).
Proof.
  induction l as [|x l IH]; cbn [sort_pairs fold_right]; [constructor|].
  rewrite <- insert_sorted_perm. apply perm_skip. exact IH.
Qed.

Theorem enum_is_complete_defined tags mx :
  enum_is_complete tags mx = None <-> flat_map tag_span tags = [].
Proof.
  unfold enum_is_complete. pose proof (sort_pairs_perm (flat_map tag_span tags)) as Hp.
  destruct (sort_pairs (flat_map tag_span tags)) as [|f r].
  - split; [intros _; apply Permutation_nil, Permutation_sym, Hp | reflexivity].
  - split; [discriminate|]. intros H. rewrite H in Hp. apply Permutation_nil in Hp. discriminate.
Qed.

Lemma integer_width_spec w :
  match integer_width w with Some bw => w <= bw /\ bw <= 64 | None => 64 < w end.
Proof.
  unfold integer_width.
  destruct (w <=? 8) eqn:E1; [lia|]. destruct (w <=? 16) eqn:E2; [lia|].
  destruct (w <=? 32) eqn:E3; [lia|]. destruct (w <=? 64) eqn:E4; lia.
Qed.

Lemma integer_width_bounds w tw : integer_width w = Some tw -> w <= tw /\ tw <= 64.
Proof. intros H. pose proof (integer_width_spec w) as Hs. now rewrite H in Hs. Qed.

Lemma integer_width_below a b cb :
  a <= b -> integer_width b = Some cb -> exists ca, integer_width a = Some ca /\ a <= ca.
Proof.
  intros Hab Hb. apply integer_width_bounds in Hb. pose proof (integer_width_spec a) as Ha.
  destruct (integer_width a) as [ca|]; [exists ca; split; [reflexivity | apply Ha] | lia].
Qed.

Theorem from_cases_defined tags w :
  from_cases tags w <> None <-> (w <= 64 /\ flat_map tag_span tags <> []).
Proof.
  unfold from_cases. pose proof (integer_width_spec w) as Hw.
  pose proof (enum_is_complete_defined tags (scalar_max w)) as Hc.
  destruct (integer_width w) as [bw|]; [|split; [congruence | lia]].
  destruct (enum_is_complete tags (scalar_max w)) as [c|].
  - split; [|discriminate]. intros _. split; [lia|]. intros Hn. apply Hc in Hn. discriminate.
  - split; [congruence|]. intros [_ Hn]. destruct (Hn (proj1 Hc eq_refl)).
Qed.
