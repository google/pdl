(** The emitted ENCODER never panics at run time, for every field kind of [enc_fields],
    whatever value it is given, provided the encoders it calls ([rec_enc], [payload_act])
    do not.  The only panics of [enc_fields] that are not of a generator kind ([gen_panic])
    are [Panic ArithOverflow]:
      - [mask_bits w] for a Size / ElementSize field of width >= 64   (finding F44),
      - [1 - setv] for a Flag whose first set value is > 1.
    Both are computed by pdlc WHILE GENERATING (usize arithmetic of a debug build), not by
    the emitted code.  Under the side condition [arith_free] nothing but generator kinds is
    left ([enc_fields_all_nrp]); without it the only other kind is ArithOverflow
    ([enc_fields_all_classified]), reached exactly there ([witness_arith_overflow]).  Both
    are one proof, over the set [ok] of tolerated panic kinds. *)
From Coq Require Import NArith List String.
From Coq Require Import Strings.Byte.
From PDL Require Import Base.Outcome Lang.Ast Lang.Sexp Analyzer.Schema Rust.Enum Rust.Encode
     Proofs.GenPre Proofs.DecodeSafe Proofs.EncodeEqns Proofs.EncodedLen.
Import ListNotations.
Open Scope N_scope.

Definition arith_free (f : field) : bool :=
  match f_cond f with
  | Some _ => true
  | None =>
      match f_desc f with
      | Size _ w | ElementSize _ w => w <? 64
      | Flag _ ((_, setv) :: _) => setv <=? 1
      | _ => true
      end
  end.

(** [no_rt_panic] is [fine] of the generator's kinds, by conversion *)
Definition fine {E A} (ok : panic_kind -> Prop) (x : outcome E A) : Prop :=
  match x with Panic k => ok k | _ => True end.

Lemma fine_bind {E A B} ok (x : outcome E A) (f : A -> outcome E B) :
  fine ok x -> (forall a, fine ok (f a)) -> fine ok (bind x f).
Proof. intros Hx Hf. destruct x; cbn [bind]; [apply Hf|exact I|exact Hx|exact I]. Qed.

Lemma fine_oapp {E A} ok (x y : outcome E (list A)) : fine ok x -> fine ok y -> fine ok (oapp x y).
Proof.
  intros Hx Hy. apply fine_bind; [exact Hx|]. intros a.
  apply fine_bind; [exact Hy|]. intros b. exact I.
Qed.

Section EncSafeAll.
  Variable fl : file.
  Variable sch : schema.
  Variable rec_enc : string -> value -> eres (list byte).
  Variable rec_len : string -> value -> option N.
  Variable d : decl.
  Variable all_fields : list field.
  Variable cs : list constr.
  Variable obj : list (string * value).
  Variable payload_act : eres (list byte).
  Variable payload_size : N.

  Variable ok : panic_kind -> Prop.
  Hypothesis ok_gen : forall k, gen_panic k = true -> ok k.
  Hypothesis payload_fine : fine ok payload_act.

  Definition rec_fine (f : field) : Prop :=
    forall t v, rec_tid fl f = Some t -> fine ok (rec_enc t v).

  (** walks the match tree of the goal; every leaf is a value, an error or a generator panic *)
  Ltac gen := first [exact I | apply ok_gen; reflexivity | apply payload_fine].
  Ltac crush :=
    repeat first
      [ gen
      | match goal with |- fine ok (match ?x with _ => _ end) => destruct x end ].

  (** the one run-time kind: [mask_bits] of a width that may be 64 or more *)
  Lemma fine_mask {A} w (g : N -> eres A) :
    (w <? 64) = true \/ ok ArithOverflow -> (forall m, fine ok (g m)) ->
    fine ok (match mask_bits w with Some m => g m | None => Panic ArithOverflow end).
  Proof.
    intros Hw Hg. unfold mask_bits. destruct (w <? 64); [apply Hg|].
    destruct Hw as [Hw|Hw]; [discriminate Hw|exact Hw].
  Qed.

  (** where the mask is taken only if the Rust type [tw] is wider than the field, the
      field has less than 64 bits *)
  Lemma fine_narrow {A} w tw (g : N -> eres A) :
    integer_width w = Some tw -> w < tw -> (forall m, fine ok (g m)) ->
    fine ok (match mask_bits w with Some m => g m | None => Panic ArithOverflow end).
  Proof.
    intros Hw Hlt. apply fine_mask. left. apply N.ltb_lt.
    apply (N.lt_le_trans _ _ _ Hlt), (integer_width_bounds w tw Hw).
  Qed.

  (** a scalar or count bit-field: a value [x] of the object, checked against the mask
      where the Rust type is wider *)
  Lemma fine_checked {A B} w (x : option B) (g : N -> N -> B -> eres A) (e : N -> B -> eres A) :
    (forall tw m n, fine ok (g tw m n)) -> (forall tw n, fine ok (e tw n)) ->
    fine ok (match integer_width w, x with
             | Some tw, Some n =>
                 if w <? tw
                 then match mask_bits w with Some m => g tw m n | None => Panic ArithOverflow end
                 else e tw n
             | None, _ => Panic GenAssert
             | _, None => ill
             end).
  Proof.
    intros Hg He. destruct (integer_width w) as [tw|] eqn:Ew; [|gen]. destruct x as [n|]; [|gen].
    destruct (N.ltb_spec w tw) as [Hlt|_]; [|apply He].
    apply (fine_narrow w tw _ Ew Hlt). intros m. apply Hg.
  Qed.

  Lemma pack_fine p shift : fine ok (pack_bit_fields fl p shift).
  Proof. unfold pack_bit_fields. crush. Qed.

  Lemma put_elems_fine f vs : rec_fine f -> fine ok (put_elems fl rec_enc f vs).
  Proof.
    intros Hr. induction vs as [|v vs IH]; [exact I|].
    rewrite put_elems_cons. apply fine_oapp; [|exact IH].
    unfold put_elem. unfold rec_fine, rec_tid in Hr.
    destruct (f_desc f) as [ | | | | | | | | | |aid [w|] [tid|] md sz| | | | ]; try gen.
    1,2: destruct v; gen.
    destruct (lookup_decl fl tid) as [[]|]; try (apply Hr; reflexivity). destruct v; gen.
  Qed.

  Lemma opt_here_fine f : rec_fine f -> fine ok (opt_here fl rec_enc obj f).
  Proof.
    intros Hr. unfold opt_here, ill. unfold rec_fine, rec_tid in Hr.
    destruct (assoc _ obj) as [v|]; [|gen].
    destruct (f_desc f) as [ | | | | | | | | | | |sid w| |tyid tid| ].
    1-11,13,15: destruct v; gen.
    - (* Scalar *)
      destruct (integer_width w) as [bw|] eqn:Ew; [|destruct v; gen].
      destruct v; try gen. destruct (N.leb_spec bw w) as [_|Hlt]; [exact I|].
      apply (fine_narrow w bw _ Ew Hlt). intros m. crush.
    - (* Typedef *)
      destruct (lookup_decl fl tid) as [[]|]; destruct v; crush.
      all: apply Hr; reflexivity.
  Qed.

  Lemma plain_here_fine f rest shift :
    rec_fine f -> fine ok (plain_here fl sch rec_enc rec_len obj payload_act f rest shift).
  Proof.
    intros Hr. unfold plain_here, ill.
    destruct (f_desc f) as [ | | | | | | | | | |aid ow ot md sz| | |tyid tid| ] eqn:Ed; try gen.
    - (* Array *)
      destruct (negb (shift =? 0)); [gen|].
      destruct (obj_list obj aid) as [vs|]; [|gen].
      destruct (next_padding rest); [|exact (put_elems_fine f vs Hr)].
      destruct (array_octets_schema _ _ _ _) as [asz|]; [|gen].
      destruct (_ <? asz); [exact I|].
      apply fine_bind; [exact (put_elems_fine f vs Hr)|]. intros; exact I.
    - (* Typedef *)
      unfold rec_fine, rec_tid in Hr. rewrite Ed in Hr.
      destruct (negb (shift =? 0)); [gen|].
      destruct (lookup_decl fl tid) as [[ |i [w|] fn| | | | | ]|]; crush; apply Hr; reflexivity.
  Qed.

  Lemma bf_entry_fine f width shift :
    f_cond f = None -> arith_free f = true \/ ok ArithOverflow ->
    fine ok (bf_entry fl rec_len d all_fields cs obj payload_size f width shift).
  Proof.
    intros Ec Hf. unfold arith_free in Hf. rewrite Ec in Hf. unfold bf_entry, ill.
    destruct (f_desc f) as [ | |fid w|fid w|fid w| | | | | | |id w|id uses| | ].
    1-2,6-11,14-15: crush.
    (* left: Size, Count, ElementSize, Scalar, Flag *)
    2,4: apply fine_checked; intros; crush.
    1,2: apply fine_mask; [exact Hf|intros m; crush].
    (* Flag: the generator computes [1 - setv] *)
    destruct uses as [|[oid setv] more]; [gen|].
    destruct (N.ltb_spec 1 setv) as [Hgt|_].
    - destruct Hf as [Hf|Hf]; [|exact Hf]. apply N.leb_le in Hf.
      destruct (N.lt_irrefl _ (N.lt_le_trans _ _ _ Hgt Hf)).
    - apply fine_bind; [crush|]. intros _. crush.
  Qed.

  (** Asked field by field, so that a field list that reaches no other type asks nothing
      of the rest of the file ([EncodeSafe.rust_encode_fragment_nrp]). *)
  Definition field_side (f : field) : Prop :=
    (arith_free f = true \/ ok ArithOverflow) /\ rec_fine f.

  Theorem enc_fields_fine : forall fs p shift,
    Forall field_side fs ->
    fine ok (enc_fields fl sch rec_enc rec_len d all_fields cs obj payload_act payload_size fs p shift).
  Proof.
    induction fs as [|f fs IH]; intros p shift Hside; [exact I|].
    inversion Hside as [|f' fs' [Hf Hr] Hrest]; subst. rewrite enc_fields_cons.
    destruct (f_cond f) eqn:Ec.
    - destruct (negb (shift =? 0)); [gen|].
      apply fine_oapp; [exact (opt_here_fine f Hr)|exact (IH _ _ Hrest)].
    - destruct (is_bitfield fl f).
      + destruct (field_size sch d f) as [[width| |]|]; try gen.
        apply fine_bind; [exact (bf_entry_fine f width shift Ec Hf)|]. intros entry. cbv zeta.
        destruct (_ =? 0); [|exact (IH _ _ Hrest)].
        apply fine_oapp; [apply pack_fine|exact (IH _ _ Hrest)].
      + apply fine_oapp; [exact (plain_here_fine f fs shift Hr)|exact (IH _ _ Hrest)].
  Qed.
End EncSafeAll.

Theorem enc_fields_all_nrp fl sch rec_enc rec_len d all_fields cs obj payload_act payload_size :
  (forall t v, no_rt_panic (rec_enc t v)) ->
  no_rt_panic payload_act ->
  forall fs p shift,
    forallb arith_free fs = true ->
    no_rt_panic (enc_fields fl sch rec_enc rec_len d all_fields cs obj payload_act payload_size fs p shift).
Proof.
  intros Hrec Hpay fs p shift Hside. rewrite forallb_forall in Hside.
  apply enc_fields_fine; [exact (fun k H => H)|exact Hpay|].
  apply Forall_forall. intros f Hin. split; [left; exact (Hside f Hin)|intros t v _; apply Hrec].
Qed.

Definition gen_or_arith {E A} (x : outcome E A) : Prop :=
  match x with Panic k => gen_panic k = true \/ k = ArithOverflow | _ => True end.

Theorem enc_fields_all_classified fl sch rec_enc rec_len d all_fields cs obj payload_act payload_size :
  (forall t v, gen_or_arith (rec_enc t v)) ->
  gen_or_arith payload_act ->
  forall fs p shift,
    gen_or_arith (enc_fields fl sch rec_enc rec_len d all_fields cs obj payload_act payload_size fs p shift).
Proof.
  intros Hrec Hpay fs p shift.
  apply enc_fields_fine; [exact (fun k H => or_introl H)|exact Hpay|].
  apply Forall_forall. intros f _. split; [right; right; reflexivity|intros t v _; apply Hrec].
Qed.

(** Witnesses: the ArithOverflow exits ARE reached, on well-typed values, exactly at the
    two places the side condition excludes (both are computations of the generator). *)
Definition w_fld (x : fdesc) : field := mkField x None.
Definition w_size64 : list field :=
  [w_fld (Size "_payload_" 64); w_fld (Payload None)].
Definition w_flag2 : list field :=
  [w_fld (Flag "c" [("x", 2)]); w_fld (Reserved 7);
   mkField (Scalar "x" 8) (Some (mkConstr "c" (Some 2) None))].
Definition w_file : file := mkFile LittleEndian [].

Eval vm_compute in
  (enc_fields w_file [] (fun _ _ => Panic UnwrapFail) (fun _ _ => None)
              (DPacket "P" [] w_size64 None) w_size64 [] [] (Ok []) 0 w_size64 [] 0,
   enc_fields w_file [] (fun _ _ => Panic UnwrapFail) (fun _ _ => None)
              (DPacket "P" [] w_flag2 None) w_flag2 [] [("x", VNum 1)] (Ok []) 0 w_flag2 [] 0).

Example witness_arith_overflow :
  enc_fields w_file [] (fun _ _ => Panic UnwrapFail) (fun _ _ => None)
             (DPacket "P" [] w_size64 None) w_size64 [] [] (Ok []) 0 w_size64 [] 0
  = Panic ArithOverflow
  /\ enc_fields w_file [] (fun _ _ => Panic UnwrapFail) (fun _ _ => None)
                (DPacket "P" [] w_flag2 None) w_flag2 [] [("x", VNum 1)] (Ok []) 0 w_flag2 [] 0
     = Panic ArithOverflow
  /\ forallb arith_free w_size64 = false /\ forallb arith_free w_flag2 = false.
Proof. vm_compute. repeat split. Qed.

Print Assumptions enc_fields_fine.
Print Assumptions enc_fields_all_nrp.
Print Assumptions enc_fields_all_classified.
