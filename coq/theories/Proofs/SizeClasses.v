(** C16, second half: the CLASSIFICATION of sizes into Static / Dynamic / Unknown,
    reading [field_size] (analyzer.rs [annotate_field]) literally.  [size_add] is the join
    of the chain Static < Dynamic < Unknown wherever it is defined, so a sum is Unknown iff
    some summand is, and Dynamic iff some summand is Dynamic and none is Unknown.
    The contribution of a field is NOT always its own class: a field followed by
    [_padding_[n]] contributes Static (8 n) whatever its class, and a payload does not
    contribute to the declaration size (it is stored apart; the last payload wins).
    The end of the file evaluates cases where a naive reading goes wrong. *)
From Coq Require Import NArith List String Bool Lia Setoid.
From PDL Require Import Lang.Ast Lang.Sexp Analyzer.Schema Proofs.ListFacts Proofs.StaticSize Proofs.SchemaEnums.
Import ListNotations.
Open Scope N_scope.

Lemma size_add_unknown_l b : size_add SUnknown b = Some SUnknown.
Proof. reflexivity. Qed.

Lemma size_add_unknown_r a : size_add a SUnknown = Some SUnknown.
Proof. destruct a; reflexivity. Qed.

Lemma size_add_dynamic_l b : b <> SUnknown -> size_add SDynamic b = Some SDynamic.
Proof. destruct b; intros H; try reflexivity. now elim H. Qed.

Lemma size_add_dynamic_r a : a <> SUnknown -> size_add a SDynamic = Some SDynamic.
Proof. destruct a; intros H; try reflexivity. now elim H. Qed.

Lemma size_add_dynamic_static n : size_add SDynamic (SStatic n) = Some SDynamic.
Proof. reflexivity. Qed.

Lemma size_add_comm a b : size_add a b = size_add b a.
Proof.
  destruct a as [x| |], b as [y| |]; try reflexivity.
  cbn [size_add]. rewrite (N.add_comm y x). reflexivity.
Qed.

Lemma size_add_zero_r a : size_add a (SStatic 0) = match a with
                                                  | SStatic x => if fits_usize x then Some a else None
                                                  | _ => Some a end.
Proof. destruct a as [x| |]; try reflexivity. cbn [size_add]. now rewrite N.add_0_r. Qed.

Lemma size_add_assoc a b c ab bc :
  size_add a b = Some ab -> size_add b c = Some bc -> size_add ab c = size_add a bc.
Proof.
  destruct a as [x| |], b as [y| |], c as [z| |]; cbn [size_add];
    try (destruct (fits_usize (x + y)); [|discriminate]);
    try (destruct (fits_usize (y + z)); [|discriminate]);
    intros [= <-] [= <-]; cbn [size_add]; rewrite ?N.add_assoc; reflexivity.
Qed.

Definition obind {A B} (o : option A) (k : A -> option B) : option B :=
  match o with Some a => k a | None => None end.

Lemma fits_usize_le a b : a <= b -> fits_usize b = true -> fits_usize a = true.
Proof. unfold fits_usize. rewrite !N.leb_le. apply N.le_trans. Qed.

(** a partial sum overflows only if the whole does: both sides are the checked sum of all three *)
Lemma size_add_assoc_static x y z :
  obind (size_add (SStatic x) (SStatic y)) (fun s => size_add s (SStatic z))
  = obind (size_add (SStatic y) (SStatic z)) (size_add (SStatic x)).
Proof.
  cbn [size_add]. destruct (fits_usize (x + y + z)) eqn:E.
  - assert (Hxy : fits_usize (x + y) = true) by exact (fits_usize_le _ _ (N.le_add_r _ _) E).
    assert (Hyz : fits_usize (y + z) = true) by (apply (fits_usize_le _ (x + y + z)); [lia | exact E]).
    rewrite Hxy, Hyz. cbn [obind size_add]. now rewrite N.add_assoc, E.
  - destruct (fits_usize (x + y)), (fits_usize (y + z)); cbn [obind size_add];
      rewrite ?N.add_assoc, ?E; reflexivity.
Qed.

(** ... but not in general: an overflowing partial sum is a panic even when the total
    would be absorbed by Unknown. *)
Example size_add_not_assoc :
  (obind (size_add (SStatic usize_max) (SStatic 1)) (fun s => size_add s SUnknown),
   obind (size_add (SStatic 1) SUnknown) (size_add (SStatic usize_max)))
  = (None, Some SUnknown).
Proof. vm_compute. reflexivity. Qed.

Lemma size_add_class a b r :
  size_add a b = Some r ->
  (r = SUnknown <-> a = SUnknown \/ b = SUnknown)
  /\ (r = SDynamic <-> (a = SDynamic \/ b = SDynamic) /\ a <> SUnknown /\ b <> SUnknown).
Proof.
  destruct a as [x| |], b as [y| |]; cbn [size_add];
    try (destruct (fits_usize (x + y)); [|discriminate]); intros [= <-]; intuition congruence.
Qed.

Lemma size_add_defined_nonstatic a b :
  (forall x, a <> SStatic x) \/ (forall y, b <> SStatic y) -> size_add a b <> None.
Proof.
  destruct a as [x| |], b as [y| |]; cbn [size_add]; intros [H|H]; try discriminate;
    now elim (H _ eq_refl).
Qed.

(** Every total the schema forms ([annotate_fields], [ds_total]) is a left-to-right sum. *)
Fixpoint size_sum (a : size) (l : list size) : option size :=
  match l with [] => Some a | b :: l => obind (size_add a b) (fun s => size_sum s l) end.

Lemma size_sum_app : forall l1 l2 a,
  size_sum a (l1 ++ l2) = obind (size_sum a l1) (fun s => size_sum s l2).
Proof.
  induction l1 as [|b l1 IH]; intros l2 a; cbn [app size_sum obind]; [reflexivity|].
  destruct (size_add a b); cbn [obind]; [apply IH | reflexivity].
Qed.

Lemma size_sum_class : forall l a r,
  size_sum a l = Some r ->
  (r = SUnknown <-> In SUnknown (a :: l))
  /\ (r = SDynamic <-> In SDynamic (a :: l) /\ ~ In SUnknown (a :: l)).
Proof.
  induction l as [|b l IH]; intros a r; cbn [size_sum].
  - intros [= <-]. cbn [In]. split; [tauto|]. split; [intros ->; split; [tauto | intros [[=]|[]]] | tauto].
  - destruct (size_add a b) as [s|] eqn:E; [|discriminate]. cbn [obind]. intros H.
    destruct (size_add_class _ _ _ E) as [Hu Hd], (IH _ _ H) as [IHu IHd].
    cbn [In] in *. rewrite IHu, IHd, Hu, Hd. clear. tauto.
Qed.

Lemma ds_total_sum e : ds_total e = size_sum (ds_decl e) [ds_parent e; ds_payload e].
Proof.
  unfold ds_total. cbn [size_sum]. destruct (size_add (ds_decl e) (ds_parent e)) as [s|]; [|reflexivity].
  cbn [obind]. destruct (size_add s (ds_payload e)); reflexivity.
Qed.

Lemma ds_total_dynamic_defined e :
  (ds_decl e = SDynamic \/ ds_parent e = SDynamic \/ ds_payload e = SDynamic) ->
  ds_decl e <> SUnknown -> ds_parent e <> SUnknown -> ds_payload e <> SUnknown ->
  (forall x y, ds_decl e = SStatic x -> ds_parent e = SStatic y -> fits_usize (x + y) = true) ->
  ds_total e = Some SDynamic.
Proof.
  unfold ds_total. destruct (ds_decl e) as [x| |], (ds_parent e) as [y| |], (ds_payload e) as [z| |];
    intros Hd H1 H2 H3 Hf; cbn [size_add]; try reflexivity;
    try (now elim H1); try (now elim H2); try (now elim H3);
    try (destruct Hd as [Hd|[Hd|Hd]]; discriminate).
  rewrite (Hf x y eq_refl eq_refl). reflexivity.
Qed.

(** the type a field refers to when its size is the total size of that type *)
Definition type_ref (x : fdesc) : option string :=
  match x with Typedef _ t | FixedEnum t _ | Group t _ => Some t | _ => None end.

Definition open_array (x : fdesc) : option string :=
  match x with Array id _ _ _ None => Some id | _ => None end.

Definition counted_typed_array (x : fdesc) : option (string * N) :=
  match x with Array _ None (Some t) _ (Some s) => Some (t, s) | _ => None end.

(** the constant width of the field kinds whose size depends on nothing *)
Definition const_width (x : fdesc) : option N :=
  match x with
  | Checksum _ | Padding _ => Some 0
  | Size _ w | Count _ w | ElementSize _ w | FixedScalar w _ | Reserved w | Scalar _ w => Some w
  | Flag _ _ => Some 1
  | Array _ (Some w) _ _ (Some s) => if fits_usize (s * w) then Some (s * w) else None
  | _ => None
  end.

(** An existential over one of these selectors is a case analysis on its value. *)
Lemma exists_some {A} (o : option A) (P : A -> Prop) :
  (exists x, o = Some x /\ P x) <-> match o with Some a => P a | None => False end.
Proof.
  destruct o as [a|]; split.
  - now intros (x & [= <-] & H).
  - eauto.
  - now intros (x & [=] & _).
  - intros [].
Qed.

Lemma exists_some_pair {A B} (o : option (A * B)) (P : A -> B -> Prop) :
  (exists x y, o = Some (x, y) /\ P x y) <-> match o with Some (a, b) => P a b | None => False end.
Proof.
  destruct o as [[a b]|]; split.
  - now intros (x & y & [= <- <-] & H).
  - eauto.
  - now intros (x & y & [=] & _).
  - intros [].
Qed.

Lemma exists_some_pair_ex {A B C} (o : option (A * B)) (P : A -> B -> C -> Prop) :
  (exists x y z, o = Some (x, y) /\ P x y z)
  <-> match o with Some (a, b) => exists z, P a b z | None => False end.
Proof.
  destruct o as [[a b]|]; split.
  - intros (x & y & z & [= <- <-] & H). eauto.
  - intros [z H]. eauto 6.
  - now intros (x & y & z & [=] & _).
  - intros [].
Qed.

Lemma none_some {A} (x : A) : None = Some x <-> False.
Proof. split; [discriminate | intros []]. Qed.

Lemma and_true_if (b : bool) (P : Prop) : (b = true /\ P) <-> if b then P else False.
Proof. destruct b; split; try tauto. now intros [[=] _]. Qed.

Section Field.
  Variable sch : schema.
  Variable d : decl.

  (** [dyn_shape], [unk_shape], [static_shape]: the clauses of property C16, disjunct by
      disjunct *)
  Definition dyn_shape (f : field) : Prop :=
    f_cond f <> None
    \/ (is_payload f = true /\ has_payload_size d = true)
    \/ (exists id, open_array (f_desc f) = Some id /\ has_array_size d id = true)
    \/ (exists t, type_ref (f_desc f) = Some t /\ type_total sch t = Some SDynamic)
    \/ (exists t s, counted_typed_array (f_desc f) = Some (t, s) /\ type_total sch t = Some SDynamic).

  Definition unk_shape (f : field) : Prop :=
    f_cond f = None
    /\ ((is_payload f = true /\ has_payload_size d = false)
        \/ (exists id, open_array (f_desc f) = Some id /\ has_array_size d id = false)
        \/ (exists t, type_ref (f_desc f) = Some t /\ type_total sch t = Some SUnknown)
        \/ (exists t s, counted_typed_array (f_desc f) = Some (t, s) /\ type_total sch t = Some SUnknown)).

  Definition static_shape (f : field) (n : N) : Prop :=
    f_cond f = None
    /\ (const_width (f_desc f) = Some n
        \/ (exists t, type_ref (f_desc f) = Some t /\ type_total sch t = Some (SStatic n))
        \/ (exists t s x, counted_typed_array (f_desc f) = Some (t, s)
                          /\ type_total sch t = Some (SStatic x)
                          /\ n = x * s /\ fits_usize (x * s) = true)).

  (** The five kinds of unconditional field: what each selector answers and what size
      [field_size] gives.  [w = None] covers the two panics (count * width overflows;
      [unreachable!()]). *)
  Variant field_kind :
    option N -> bool -> option string -> option string -> option (string * N) -> option size -> Prop :=
  | FK_const w : field_kind w false None None None (option_map SStatic w)
  | FK_payload :
      field_kind None true None None None (Some (if has_payload_size d then SDynamic else SUnknown))
  | FK_open id :
      field_kind None false (Some id) None None
                 (Some (if has_array_size d id then SDynamic else SUnknown))
  | FK_ref t : field_kind None false None (Some t) None (type_total sch t)
  | FK_counted t s :
      field_kind None false None None (Some (t, s))
                 (obind (type_total sch t) (fun x => size_mul_n x s)).

  Lemma field_kindP f :
    f_cond f = None ->
    field_kind (const_width (f_desc f)) (is_payload f) (open_array (f_desc f)) (type_ref (f_desc f))
               (counted_typed_array (f_desc f)) (field_size sch d f).
  Proof.
    unfold field_size, is_payload. intros ->.
    destruct (f_desc f) as [ | | | | | | | | | |id [w|] [t|] m [s|]| | | | ];
      cbn [const_width is_payload_desc open_array type_ref counted_typed_array];
      try destruct (fits_usize (s * w));
      first [exact (FK_const (Some _)) | exact (FK_const None) | constructor].
  Qed.

  Lemma field_size_cond f c r : f_cond f = Some c -> (field_size sch d f = Some r <-> r = SDynamic).
  Proof. unfold field_size. intros ->. split; congruence. Qed.

  Lemma const_size w r :
    option_map SStatic w = Some r <-> match r with SStatic n => w = Some n | _ => False end.
  Proof. destruct w, r; cbn [option_map]; split; try discriminate; try tauto; now intros [= ->]. Qed.

  Lemma flag_size (b : bool) r :
    Some (if b then SDynamic else SUnknown) = Some r
    <-> match r with SDynamic => b = true | SUnknown => b = false | SStatic _ => False end.
  Proof. destruct b, r; split; try discriminate; try tauto; reflexivity. Qed.

  (** [size_mul_n] keeps the class of the element type *)
  Lemma counted_size t s r :
    obind (type_total sch t) (fun x => size_mul_n x s) = Some r
    <-> match r with
        | SStatic n => exists x, type_total sch t = Some (SStatic x) /\ n = x * s /\ fits_usize (x * s) = true
        | _ => type_total sch t = Some r
        end.
  Proof.
    destruct (type_total sch t) as [[x| |]|]; cbn [obind size_mul_n].
    - destruct (fits_usize (x * s)) eqn:E, r as [n| |]; split; try discriminate.
      + intros [= <-]. eauto.
      + now intros (? & [= <-] & -> & _).
      + intros (? & [= <-] & _ & E'). congruence.
    - destruct r; split; try discriminate; try tauto. intros (? & [=] & _).
    - destruct r; split; try discriminate; try tauto. intros (? & [=] & _).
    - destruct r; split; try discriminate. intros (? & [=] & _).
  Qed.

  (** The three shapes partition the defined values of [field_size]. *)
  Lemma field_size_shape f r :
    field_size sch d f = Some r <->
    match r with SDynamic => dyn_shape f | SUnknown => unk_shape f | SStatic n => static_shape f n end.
  Proof.
    unfold dyn_shape, unk_shape, static_shape. destruct (f_cond f) as [c|] eqn:Ec.
    - rewrite (field_size_cond f c _ Ec). destruct r as [n| |].
      + split; [discriminate | now intros [[=] _]].
      + split; [left; discriminate | reflexivity].
      + split; [discriminate | now intros [[=] _]].
    - (* each kind is decided by its size fact; the dead selectors have become [False] *)
      destruct r as [n| |];
        [rewrite exists_some, exists_some_pair_ex | rewrite and_true_if, !exists_some, exists_some_pair ..];
        destruct (field_kindP f Ec) as [w| |id|t|t s]; cbn beta iota;
        rewrite ?none_some, ?const_size, ?flag_size, ?counted_size; tauto.
  Qed.

  Theorem field_dynamic_iff f : field_size sch d f = Some SDynamic <-> dyn_shape f.
  Proof. exact (field_size_shape f SDynamic). Qed.

  Theorem field_unknown_iff f : field_size sch d f = Some SUnknown <-> unk_shape f.
  Proof. exact (field_size_shape f SUnknown). Qed.

  Theorem field_static_iff f n : field_size sch d f = Some (SStatic n) <-> static_shape f n.
  Proof. exact (field_size_shape f (SStatic n)). Qed.

  Corollary field_size_trichotomy f r :
    field_size sch d f = Some r ->
    (r = SDynamic /\ dyn_shape f) \/ (r = SUnknown /\ unk_shape f) \/ (exists n, r = SStatic n /\ static_shape f n).
  Proof. intros H. apply field_size_shape in H. destruct r as [n| |]; eauto. Qed.

  Corollary shapes_exclusive f : dyn_shape f -> unk_shape f -> False.
  Proof.
    intros Hd Hu. apply field_dynamic_iff in Hd. apply field_unknown_iff in Hu. congruence.
  Qed.

  Definition contrib (f : field) (rest : list field) : option size :=
    match field_size sch d f with
    | None => None
    | Some fsz => match next_padding rest with Some p => Some (SStatic p) | None => Some fsz end
    end.

  (** the summands of the declaration total; a field without [contrib] is dropped, which
      does not happen where [annotate_fields] is defined, as it is for every user *)
  Fixpoint contribs (fs : list field) : list (field * size) :=
    match fs with
    | [] => []
    | f :: rest =>
        if is_payload f then contribs rest
        else match contrib f rest with
             | Some s => (f, s) :: contribs rest
             | None => contribs rest
             end
    end.

  Lemma contribs_nonstatic_inv : forall fs f s,
    In (f, s) (contribs fs) -> (forall n, s <> SStatic n) ->
    exists pre rest, fs = (pre ++ f :: rest)%list /\ is_payload f = false
                     /\ next_padding rest = None /\ field_size sch d f = Some s.
  Proof.
    induction fs as [|g rest IH]; intros f s Hin Hs; cbn [contribs] in Hin; [contradiction|].
    assert (Hlater : In (f, s) (contribs rest) ->
                     exists pre rest', (g :: rest = pre ++ f :: rest')%list /\ is_payload f = false
                                       /\ next_padding rest' = None /\ field_size sch d f = Some s).
    { intros H. destruct (IH f s H Hs) as (pre & rest' & -> & Hr). exists (g :: pre), rest'. auto. }
    destruct (is_payload g) eqn:Ep; [now apply Hlater|]. unfold contrib in Hin.
    destruct (field_size sch d g) as [fsz|] eqn:Eg; [|now apply Hlater].
    (* a padded contribution is Static *)
    destruct (next_padding rest) as [p|] eqn:En; (destruct Hin as [[= <- <-]|Hin]; [|now apply Hlater]).
    - now elim (Hs p).
    - exists [], rest. auto.
  Qed.

  Lemma contribs_intro pre f rest s :
    is_payload f = false -> contrib f rest = Some s -> In (f, s) (contribs (pre ++ f :: rest)).
  Proof.
    intros Hp Hc. induction pre as [|g pre IH]; cbn [app contribs].
    - rewrite Hp, Hc. left; reflexivity.
    - destruct (is_payload g); [exact IH|]. destruct (contrib g _); [right|]; exact IH.
  Qed.

  Lemma contrib_some f rest fsz :
    field_size sch d f = Some fsz ->
    contrib f rest = Some (match next_padding rest with Some p => SStatic p | None => fsz end).
  Proof. unfold contrib. intros ->. now destruct (next_padding rest). Qed.

  (** [annotate_fields] sums the contributions of the non-payload fields onto [a], and
      keeps the size of the LAST payload/body field (or the initial [p]). *)
  Lemma annotate_fields_spec : forall fs a p dsz psz,
    annotate_fields sch d fs a p = Some (dsz, psz) ->
    size_sum a (map snd (contribs fs)) = Some dsz
    /\ Some psz = match find is_payload (rev fs) with
                  | Some f => field_size sch d f
                  | None => Some p
                  end.
  Proof.
    induction fs as [|g rest IH]; intros a p dsz psz H.
    - injection H as <- <-. split; reflexivity.
    - cbn [rev contribs]. rewrite find_app. cbn [find]. destruct (is_payload g) eqn:Ep.
      + destruct (annotate_fields_payload_step _ _ _ _ _ _ _ Ep H) as (fsz & Hfs & H').
        destruct (IH _ _ _ _ H') as [Hs ->]. split; [exact Hs|].
        destruct (find is_payload (rev rest)); [reflexivity | now rewrite Hfs].
      + destruct (annotate_fields_step _ _ _ _ _ _ _ Ep H) as (fsz & a' & Hfs & Ha & H').
        rewrite (contrib_some _ _ _ Hfs). cbn [map snd size_sum]. rewrite Ha. cbn [obind].
        destruct (IH _ _ _ _ H') as [Hs ->]. split; [exact Hs|].
        now destruct (find is_payload (rev rest)).
  Qed.

  Theorem annotate_fields_class fs a p dsz psz :
    annotate_fields sch d fs a p = Some (dsz, psz) ->
    (dsz = SUnknown <-> a = SUnknown \/ exists f, In (f, SUnknown) (contribs fs))
    /\ (dsz = SDynamic <->
        (a = SDynamic \/ exists f, In (f, SDynamic) (contribs fs))
        /\ a <> SUnknown /\ forall f, ~ In (f, SUnknown) (contribs fs)).
  Proof.
    intros H. destruct (size_sum_class _ _ _ (proj1 (annotate_fields_spec _ _ _ _ _ H))) as [Hu Hd].
    cbn [In] in Hu, Hd. rewrite Hu, Hd, !in_map_snd. split; [reflexivity|].
    split; intros [Hex Hn]; (split; [exact Hex|]).
    - split; [tauto | intros f Hf; apply Hn; eauto].
    - intros [Ha|[f Hf]]; [exact (proj1 Hn Ha) | exact (proj2 Hn f Hf)].
  Qed.

  Theorem annotate_fields_payload fs a p dsz psz :
    annotate_fields sch d fs a p = Some (dsz, psz) ->
    Some psz = match find is_payload (rev fs) with
               | Some f => field_size sch d f
               | None => Some p
               end.
  Proof. intros H. exact (proj2 (annotate_fields_spec _ _ _ _ _ H)). Qed.

  Corollary decl_size_dynamic fs dsz psz :
    annotate_fields sch d fs (SStatic 0) (SStatic 0) = Some (dsz, psz) ->
    dsz = SDynamic ->
    (exists pre f rest, fs = (pre ++ f :: rest)%list /\ is_payload f = false
                        /\ next_padding rest = None /\ dyn_shape f)
    /\ (forall pre f rest, fs = (pre ++ f :: rest)%list -> is_payload f = false ->
                           next_padding rest = None -> ~ unk_shape f).
  Proof.
    intros H Hd. destruct (annotate_fields_class _ _ _ _ _ H) as [_ Hdyn].
    destruct (proj1 Hdyn Hd) as [[Ha|[f Hf]] [_ Hnu]]; [discriminate|]. split.
    - destruct (contribs_nonstatic_inv _ _ _ Hf) as (pre & rest & Hfs & Hp & Hpad & Hsz); [discriminate|].
      exists pre, f, rest. rewrite <- field_dynamic_iff. auto.
    - intros pre f' rest -> Hp Hpad Hu. apply field_unknown_iff in Hu.
      apply (Hnu f'), contribs_intro; [exact Hp|]. unfold contrib. now rewrite Hu, Hpad.
  Qed.

  Corollary decl_size_unknown fs dsz psz :
    annotate_fields sch d fs (SStatic 0) (SStatic 0) = Some (dsz, psz) ->
    dsz = SUnknown ->
    exists pre f rest, fs = (pre ++ f :: rest)%list /\ is_payload f = false
                       /\ next_padding rest = None /\ unk_shape f.
  Proof.
    intros H Hd. destruct (annotate_fields_class _ _ _ _ _ H) as [Hunk _].
    destruct (proj1 Hunk Hd) as [Ha|[f Hf]]; [discriminate|].
    destruct (contribs_nonstatic_inv _ _ _ Hf) as (pre & rest & Hfs & Hp & Hpad & Hsz); [discriminate|].
    exists pre, f, rest. rewrite <- field_unknown_iff. auto.
  Qed.
End Field.

Definition is_container (d : decl) : bool :=
  match d with DPacket _ _ _ _ | DStruct _ _ _ _ | DGroup _ _ => true | _ => false end.

(** what [annotate_decl] stores as [ds_parent]: the parent's own fields and the parent's
    parents, WITHOUT the parent's payload (which the child replaces) *)
Definition parent_size (sch : schema) (d : decl) : option size :=
  match decl_parent_id d with
  | Some p => match assoc p sch with
              | Some ds => size_add (ds_decl ds) (ds_parent ds)
              | None => Some (SStatic 0)
              end
  | None => Some (SStatic 0)
  end.

Lemma annotate_decl_container sch d e :
  is_container d = true -> annotate_decl sch d = Some e ->
  parent_size sch d = Some (ds_parent e)
  /\ annotate_fields sch d (decl_fields d) (SStatic 0) (SStatic 0) = Some (ds_decl e, ds_payload e).
Proof.
  unfold annotate_decl. fold (parent_size sch d). intros Hc H.
  destruct (parent_size sch d) as [ps|]; [|discriminate].
  destruct (annotate_fields sch d (decl_fields d) (SStatic 0) (SStatic 0)) as [[dsz psz]|]; [|discriminate].
  destruct d; try discriminate; inversion H; subst; split; reflexivity.
Qed.

(** Non-container declarations: enum, checksum, sized custom field are Static (never
    Dynamic nor Unknown); a custom field WITHOUT width is Dynamic by decree. *)
Lemma annotate_decl_leaf sch d e :
  is_container d = false -> annotate_decl sch d = Some e ->
  ds_parent e = SStatic 0 /\ ds_payload e = SStatic 0
  /\ ds_decl e = match d with
                 | DEnum _ _ w | DChecksum _ _ w | DCustomField _ (Some w) _ => SStatic w
                 | DCustomField _ None _ => SDynamic
                 | _ => SStatic 0
                 end.
Proof.
  unfold annotate_decl. intros Hc H.
  destruct d as [i fn w|i [w|] fn|i tg w| | | |t]; try discriminate;
    cbn [decl_parent_id decl_fields annotate_fields] in H; inversion H; subst; repeat split; reflexivity.
Qed.

(** Parent and payload of a leaf are Static 0, so a total that is not Static is the declared
    size, and only a custom field without width declares one that is not Static. *)
Lemma leaf_total_nonstatic sch d e r :
  is_container d = false -> annotate_decl sch d = Some e -> ds_total e = Some r ->
  (forall n, r <> SStatic n) -> r = SDynamic /\ exists i fn, d = DCustomField i None fn.
Proof.
  intros Hc H Ht Hr. destruct (annotate_decl_leaf _ _ _ Hc H) as (Hp & Hy & Hdecl).
  rewrite ds_total_sum, Hp, Hy in Ht. destruct (size_sum_class _ _ _ Ht) as [Hu Hd]. cbn [In] in Hu, Hd.
  assert (E : ds_decl e = r).
  { destruct r as [n| |]; [now elim (Hr n) | |].
    - destruct (proj1 Hd eq_refl) as [[E|[E|[E|[]]]] _]; [exact E | discriminate E ..].
    - destruct (proj1 Hu eq_refl) as [E|[E|[E|[]]]]; [exact E | discriminate E ..]. }
  rewrite Hdecl in E. subst r.
  destruct d as [? ? w|? [w|] ?|? ? w| | | |?]; try discriminate Hc; try (now elim (Hr _ eq_refl)); eauto.
Qed.

Theorem leaf_total_dynamic_iff sch d e :
  is_container d = false -> annotate_decl sch d = Some e ->
  (ds_total e = Some SDynamic <-> exists i fn, d = DCustomField i None fn).
Proof.
  intros Hc H. split.
  - intros Ht. apply (leaf_total_nonstatic _ _ _ _ Hc H Ht). discriminate.
  - intros (i & fn & ->). now injection H as <-.
Qed.

Theorem leaf_total_never_unknown sch d e :
  is_container d = false -> annotate_decl sch d = Some e -> ds_total e <> Some SUnknown.
Proof.
  intros Hc H Ht. destruct (leaf_total_nonstatic _ _ _ _ Hc H Ht) as [[=] _]. discriminate.
Qed.

Definition payload_size_of (sch : schema) (d : decl) : option size :=
  match find is_payload (rev (decl_fields d)) with
  | Some f => field_size sch d f
  | None => Some (SStatic 0)
  end.

Lemma container_parts sch d e :
  is_container d = true -> annotate_decl sch d = Some e ->
  size_sum (SStatic 0) (map snd (contribs sch d (decl_fields d))) = Some (ds_decl e)
  /\ parent_size sch d = Some (ds_parent e) /\ payload_size_of sch d = Some (ds_payload e).
Proof.
  intros Hc H. destruct (annotate_decl_container _ _ _ Hc H) as [Hps Haf].
  destruct (annotate_fields_spec _ _ _ _ _ _ _ Haf) as [Hs Hp]. auto.
Qed.

(** The total of a packet / struct / group is [decl + parent + payload].  Whenever it is
    defined (no usize overflow) it is Dynamic iff (a) a non-payload field's contribution
    (Dynamic shape, no padding after it), (b) the parent's size or (c) the last payload/body
    field is Dynamic and none of them is Unknown; it is Unknown iff one of them is. *)
Theorem container_total_class sch d e r :
  is_container d = true -> annotate_decl sch d = Some e -> ds_total e = Some r ->
  (r = SDynamic <->
   ((exists f, In (f, SDynamic) (contribs sch d (decl_fields d)))
    \/ parent_size sch d = Some SDynamic \/ payload_size_of sch d = Some SDynamic)
   /\ (forall f, ~ In (f, SUnknown) (contribs sch d (decl_fields d)))
   /\ parent_size sch d <> Some SUnknown /\ payload_size_of sch d <> Some SUnknown)
  /\ (r = SUnknown <->
      (exists f, In (f, SUnknown) (contribs sch d (decl_fields d)))
      \/ parent_size sch d = Some SUnknown \/ payload_size_of sch d = Some SUnknown).
Proof.
  intros Hc H Ht. destruct (container_parts _ _ _ Hc H) as (Hs & -> & ->).
  set (C := contribs sch d (decl_fields d)) in *.
  (* the total is ONE sum: the contributions, then the parent, then the payload *)
  assert (Hall : size_sum (SStatic 0) (map snd C ++ [ds_parent e; ds_payload e]) = Some r)
    by (rewrite size_sum_app, Hs; cbn [obind]; rewrite <- ds_total_sum; exact Ht).
  destruct (size_sum_class _ _ _ Hall) as [Hu Hd].
  assert (Hin : forall x, x <> SStatic 0 ->
            (In x (SStatic 0 :: map snd C ++ [ds_parent e; ds_payload e]) <->
             (exists f, In (f, x) C) \/ Some (ds_parent e) = Some x \/ Some (ds_payload e) = Some x)).
  { intros x Hx. cbn [In]. rewrite in_app_iff, in_map_snd. cbn [In]. split.
    - intros [E|[Hf|[<-|[<-|[]]]]]; [now elim Hx | auto ..].
    - intros [Hf|[[= <-]|[= <-]]]; auto 6. }
  rewrite Hu, Hd, !Hin by discriminate. clear. split; [|reflexivity].
  split; intros [Hex Hn]; (split; [exact Hex|]).
  - split; [intros f Hf; apply Hn; eauto | split; intros E; apply Hn; auto].
  - intros [[f Hf]|[E|E]]; [exact (proj1 Hn f Hf) | exact (proj1 (proj2 Hn) E) | exact (proj2 (proj2 Hn) E)].
Qed.

(** The converse direction needs the total to be defined; it is whenever own fields and
    parent do not overflow together (see [cex_overflow] for the case where they do). *)
Theorem container_total_dynamic_defined sch d e :
  is_container d = true -> annotate_decl sch d = Some e ->
  ((exists f, In (f, SDynamic) (contribs sch d (decl_fields d)))
   \/ parent_size sch d = Some SDynamic \/ payload_size_of sch d = Some SDynamic) ->
  (forall f, ~ In (f, SUnknown) (contribs sch d (decl_fields d))) ->
  parent_size sch d <> Some SUnknown -> payload_size_of sch d <> Some SUnknown ->
  size_add (ds_decl e) (ds_parent e) <> None ->
  ds_total e = Some SDynamic.
Proof.
  intros Hc H Hex Hnu Hnp Hny Hdef. destruct (container_parts _ _ _ Hc H) as (Hs & Hps & Hpay).
  rewrite Hps, Hpay in *. destruct (size_sum_class _ _ _ Hs) as [Hu Hd]. cbn [In] in Hu, Hd.
  assert (Hnu' : ~ (SStatic 0 = SUnknown \/ In SUnknown (map snd (contribs sch d (decl_fields d)))))
    by (rewrite in_map_snd; intros [E|[f Hf]]; [discriminate E | exact (Hnu f Hf)]).
  apply ds_total_dynamic_defined.
  - destruct Hex as [Hf|[[= E]|[= E]]]; auto. left. apply Hd. rewrite in_map_snd. auto.
  - now rewrite Hu.
  - congruence.
  - congruence.
  - intros x y Ex Ey. rewrite Ex, Ey in Hdef. cbn [size_add] in Hdef. now destruct (fits_usize (x + y)).
Qed.

Lemma parent_size_class sch d r :
  parent_size sch d = Some r ->
  (r = SDynamic <-> exists p pe, decl_parent_id d = Some p /\ assoc p sch = Some pe
                                 /\ (ds_decl pe = SDynamic \/ ds_parent pe = SDynamic)
                                 /\ ds_decl pe <> SUnknown /\ ds_parent pe <> SUnknown)
  /\ (r = SUnknown <-> exists p pe, decl_parent_id d = Some p /\ assoc p sch = Some pe
                                    /\ (ds_decl pe = SUnknown \/ ds_parent pe = SUnknown)).
Proof.
  unfold parent_size. destruct (decl_parent_id d) as [p|]; [destruct (assoc p sch) as [pe|] eqn:Ea|].
  - intros H. destruct (size_add_class _ _ _ H) as [Hu Hd]. rewrite Hu, Hd.
    split; (split; [intros Hx; exists p, pe; auto | intros (? & ? & [= <-] & Ha & Hx); congruence]).
  - intros [= <-]. split; split; try discriminate; intros (? & ? & [= <-] & Ha & _); congruence.
  - intros [= <-]. split; split; try discriminate; intros (? & ? & [=] & _).
Qed.

(** On the schema of a whole file: what [type_total] says about the declaration the
    identifier resolves to ([s'] is the schema of the declarations BEFORE it). *)
Theorem type_total_dynamic fl sch tid d :
  mk_schema fl = Some sch -> lookup_decl fl tid = Some d -> type_total sch tid = Some SDynamic ->
  exists pre post s',
    f_decls fl = (pre ++ d :: post)%list /\ mk_schema_go pre (decl_ids fl) [] = Some s'
    /\ if is_container d then
         ((exists f, In (f, SDynamic) (contribs s' d (decl_fields d)))
          \/ parent_size s' d = Some SDynamic \/ payload_size_of s' d = Some SDynamic)
         /\ (forall f, ~ In (f, SUnknown) (contribs s' d (decl_fields d)))
         /\ parent_size s' d <> Some SUnknown /\ payload_size_of s' d <> Some SUnknown
       else exists i fn, d = DCustomField i None fn.
Proof.
  intros Hm Hl Ht. destruct (mk_schema_entry _ _ _ _ Hm Hl) as (pre & post & s' & e & Hs & Hp & Ha & Hte).
  exists pre, post, s'. split; [exact Hs|]. split; [exact Hp|]. rewrite (type_total_assoc _ _ _ Hte) in Ht.
  destruct (is_container d) eqn:Hc.
  - apply (container_total_class _ _ _ _ Hc Ha Ht). reflexivity.
  - apply (leaf_total_dynamic_iff _ _ _ Hc Ha). exact Ht.
Qed.

Theorem type_total_unknown fl sch tid d :
  mk_schema fl = Some sch -> lookup_decl fl tid = Some d -> type_total sch tid = Some SUnknown ->
  exists pre post s',
    f_decls fl = (pre ++ d :: post)%list /\ mk_schema_go pre (decl_ids fl) [] = Some s'
    /\ is_container d = true
    /\ ((exists f, In (f, SUnknown) (contribs s' d (decl_fields d)))
        \/ parent_size s' d = Some SUnknown \/ payload_size_of s' d = Some SUnknown).
Proof.
  intros Hm Hl Ht. destruct (mk_schema_entry _ _ _ _ Hm Hl) as (pre & post & s' & e & Hs & Hp & Ha & Hte).
  exists pre, post, s'. split; [exact Hs|]. split; [exact Hp|]. rewrite (type_total_assoc _ _ _ Hte) in Ht.
  destruct (is_container d) eqn:Hc.
  - split; [reflexivity|]. apply (container_total_class _ _ _ _ Hc Ha Ht). reflexivity.
  - exfalso. exact (leaf_total_never_unknown _ _ _ Hc Ha Ht).
Qed.

Definition fld (x : fdesc) : field := mkField x None.

(** one declaration with every class *)
Definition ex_file : file := mkFile LittleEndian [
  DEnum "E" [TagValue "A" 1] 8;
  DCustomField "CF" None "cf";
  DStruct "Sized" [] [fld (Size "_payload_" 8); fld (Payload None)] None;
  DStruct "Open" [] [fld (Payload None)] None;
  DPacket "P" [] [
    fld (Scalar "a" 8);                                   (* Static 8 *)
    fld (Typedef "e" "E");                                (* Static 8, type *)
    fld (Array "k" (Some 16) None None (Some 3));          (* Static 48 *)
    fld (Count "xs" 8);                                   (* Static 8 *)
    fld (Array "xs" (Some 8) None None None);              (* Dynamic: count field *)
    fld (Array "ys" (Some 8) None None None);              (* Unknown: nothing delimits *)
    fld (Typedef "t" "Sized");                            (* Dynamic: the type is *)
    fld (Typedef "u" "Open");                             (* Unknown: the type is *)
    fld (Typedef "c" "CF");                               (* Dynamic: custom field *)
    fld (Array "ts" None (Some "Sized") None (Some 2));    (* Dynamic: 2 x Dynamic *)
    mkField (Scalar "o" 8) (Some (mkConstr "a" (Some 1) None));  (* Dynamic: condition *)
    fld (Size "_payload_" 8);                             (* Static 8 *)
    fld (Payload None);                                   (* Dynamic: size field *)
    fld (Array "zs" (Some 8) None None None);              (* Unknown, but padded: *)
    fld (Padding 4)                                       (* contributes Static 32 *)
  ] None;
  DPacket "D" [] [fld (Scalar "a" 8); fld (Count "xs" 8); fld (Array "xs" (Some 8) None None None)] None;
  DPacket "S" [] [fld (Scalar "a" 8); fld (Array "zs" (Some 8) None None None); fld (Padding 4)] None;
  DPacket "C" [] [fld (Scalar "b" 8)] (Some "D")
].

(** [mk_schema ex_file] succeeds ([ex_dynamic_instance]): the fallback is never taken *)
Definition ex_sch : schema := match mk_schema ex_file with Some s => s | None => [] end.
Definition ex_P : decl := nth 4 (f_decls ex_file) (DTest "").

Example ex_field_classes :
  map (field_size ex_sch ex_P) (decl_fields ex_P)
  = [Some (SStatic 8); Some (SStatic 8); Some (SStatic 48); Some (SStatic 8);
     Some SDynamic; Some SUnknown; Some SDynamic; Some SUnknown; Some SDynamic; Some SDynamic;
     Some SDynamic; Some (SStatic 8); Some SDynamic; Some SUnknown; Some (SStatic 0)].
Proof. vm_compute. reflexivity. Qed.

Example ex_contribs :
  map snd (contribs ex_sch ex_P (decl_fields ex_P))
  = [SStatic 8; SStatic 8; SStatic 48; SStatic 8; SDynamic; SUnknown; SDynamic; SUnknown; SDynamic;
     SDynamic; SDynamic; SStatic 8; SStatic 32; SStatic 0].
Proof. vm_compute. reflexivity. Qed.

Example ex_totals :
  map (type_total ex_sch) ["E"; "CF"; "Sized"; "Open"; "P"; "D"; "S"; "C"]
  = [Some (SStatic 8); Some SDynamic; Some SDynamic; Some SUnknown; Some SUnknown;
     Some SDynamic; Some (SStatic 40); Some SDynamic].
Proof. vm_compute. reflexivity. Qed.

(** the hypotheses of the file-level theorems hold of the example *)
Example ex_dynamic_instance :
  mk_schema ex_file = Some ex_sch /\ lookup_decl ex_file "D" <> None
  /\ type_total ex_sch "D" = Some SDynamic /\ type_total ex_sch "P" = Some SUnknown.
Proof. vm_compute. repeat split; discriminate. Qed.

(** (1) An array that NOTHING delimits is Unknown as a field, yet the declaration holding
    it is STATIC when a padding field follows: the padded size replaces the field's class.
    Same for a Dynamic (optional) field. *)
Definition cex_padded : file := mkFile LittleEndian [
  DPacket "Q" [] [fld (Array "zs" (Some 8) None None None); fld (Padding 4)] None;
  DPacket "R" [] [fld (Scalar "f" 8);
                  mkField (Scalar "o" 8) (Some (mkConstr "f" (Some 1) None)); fld (Padding 4)] None ].
Eval vm_compute in
  (match mk_schema cex_padded with
   | Some s => (map (fun d => map (field_size s d) (decl_fields d)) (f_decls cex_padded),
                map (type_total s) ["Q"; "R"])
   | None => ([], [])
   end).
Example cex_padded_static :
  match mk_schema cex_padded with
  | Some s => type_total s "Q" = Some (SStatic 32) /\ type_total s "R" = Some (SStatic 40)
              /\ field_size s (nth 0 (f_decls cex_padded) (DTest "")) (fld (Array "zs" (Some 8) None None None))
                 = Some SUnknown
  | None => False
  end.
Proof. vm_compute. repeat split. Qed.

(** (2) A custom field without width is Dynamic by decree, with no delimiter at all (the
    statement's "user-supplied custom field" clause): the evaluation prints
    [ds_decl := SDynamic]. *)
Eval vm_compute in (annotate_decl [] (DCustomField "CF" None "cf")).

(** (3) Own and parent fields are added FIRST, so a declaration with a sized payload
    (Dynamic) whose own and inherited Static bits exceed usize has NO total (a usize
    overflow panic in a debug build of pdlc when it is queried) instead of Dynamic;
    [annotate_decl] itself succeeds. *)
Definition cex_overflow : file := mkFile LittleEndian [
  DPacket "A" [] [fld (Reserved 9223372036854775808); fld (Size "_payload_" 8); fld (Payload None)] None;
  DPacket "B" [] [fld (Reserved 9223372036854775800); fld (Size "_payload_" 8); fld (Payload None)] (Some "A") ].
Eval vm_compute in
  (match mk_schema cex_overflow with
   | Some s => (assoc "B" s, type_total s "A", type_total s "B")
   | None => (None, None, None)
   end).
Example cex_overflow_none :
  match mk_schema cex_overflow with
  | Some s => type_total s "A" = Some SDynamic /\ type_total s "B" = None
              /\ payload_size_of s (nth 1 (f_decls cex_overflow) (DTest "")) = Some SDynamic
  | None => False
  end.
Proof. vm_compute. repeat split. Qed.

(** (4) The parent's PAYLOAD does not count in a child's total (the child's fields take
    its place): a parent of Unknown total has a child of Static total.  The evaluation
    prints [(Some SUnknown, Some (SStatic 16))] for the totals of A and B. *)
Definition cex_parent : file := mkFile LittleEndian [
  DPacket "A" [] [fld (Scalar "x" 8); fld (Payload None)] None;
  DPacket "B" [] [fld (Scalar "y" 8)] (Some "A") ].
Eval vm_compute in
  (match mk_schema cex_parent with
   | Some s => (type_total s "A", type_total s "B")
   | None => (None, None)
   end).

(** (5) Two payload fields (rejected later by the analyzer, not by the schema): only the
    LAST one is counted.  Both evaluations print [ds_payload := SDynamic]; in the second
    the payload before the conditional body would alone be Unknown. *)
Eval vm_compute in
  (annotate_decl [] (DPacket "W" [] [fld (Size "_payload_" 8); fld (Payload None); fld Body] None),
   annotate_decl [] (DPacket "W" [] [fld (Payload None); mkField Body (Some (mkConstr "a" (Some 1) None))] None)).

(** (6) A static count of ZERO elements of a Dynamic type is still Dynamic: the evaluation
    prints [Some SDynamic]. *)
Eval vm_compute in
  (field_size ex_sch ex_P (fld (Array "ts" None (Some "Sized") None (Some 0)))).

Print Assumptions field_dynamic_iff.
Print Assumptions field_unknown_iff.
Print Assumptions field_static_iff.
Print Assumptions annotate_fields_class.
Print Assumptions annotate_fields_payload.
Print Assumptions decl_size_dynamic.
Print Assumptions decl_size_unknown.
Print Assumptions container_total_class.
Print Assumptions container_total_dynamic_defined.
Print Assumptions leaf_total_dynamic_iff.
Print Assumptions type_total_dynamic.
Print Assumptions type_total_unknown.
Print Assumptions size_add_assoc.
