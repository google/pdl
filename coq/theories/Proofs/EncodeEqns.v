(** The model's big functions, one step at a time.

    [enc_fields] and [len_fields] of [Rust.Encode] and [ref_enc_fields] of [Sem.RefEncode]
    are recursions over the field list that treat the first field in one of three ways.
    Here each way gets a name, and one equation per function ([enc_fields_cons],
    [len_fields_cons], [ref_enc_fields_cons]) says what the function does with [f :: rest]
    in terms of them, so that proofs rewrite with the equation and reason about one kind
    of field at a time instead of unfolding the whole function:

                            enc_fields        len_fields      ref_enc_fields
      optional field        [opt_here]        [opt_len]       [ref_opt_here]
      bit-field             [bf_entry]        (its width)     [ref_bitfield] (of the model)
      any other field       [plain_here]      [plain_len]     [ref_plain_here]
      "then the rest"       [oapp]            [add_len]       [sapp]

    The definitions are the model's text.  Likewise for declarations, one unit of fuel
    at a time. *)
From Coq Require Import NArith List String Bool.
From Coq Require Import Strings.Byte.
From PDL Require Import Base.Outcome Lang.Ast Lang.Sexp Analyzer.Schema Rust.Enum Sem.RefEncode
     Rust.Encode Proofs.DecodeSafe.
Import ListNotations.
Local Open Scope string_scope.
Local Open Scope N_scope.

Definition oapp {E A} (x y : outcome E (list A)) : outcome E (list A) :=
  let* a := x in let* b := y in Ok (a ++ b)%list.

Definition add_len (a b : option N) : option N :=
  match a, b with Some a, Some b => Some (a + b) | _, _ => None end.

Definition sapp (a b : option (list seg)) : option (list seg) :=
  match a, b with Some a, Some b => Some (a ++ b)%list | _, _ => None end.

Lemma next_padding_spec rest :
  next_padding rest = option_map (fun n => 8 * n) (next_is_padding rest).
Proof. destruct rest as [|g rest]; [reflexivity|]. cbn. now destruct (f_desc g). Qed.

Section Fields.
  Variable fl : file.
  Variable sch : schema.
  Variable rec : string -> value -> option (list seg).
  Variable rec_enc : string -> value -> eres (list byte).
  Variable rec_len : string -> value -> option N.
  Variable d : decl.
  Variable all_fields : list field.
  Variable cs : list constr.
  Variable obj : list (string * value).
  Variable payload : list seg.
  Variable payload_act : eres (list byte).
  Variable payload_size : N.

  Definition opt_id (f : field) : string := match field_id f with Some i => i | None => "" end.

  Definition opt_here (f : field) : eres (list byte) :=
    match assoc (opt_id f) obj with
    | None => ill
    | Some VNull => Ok []
    | Some v =>
        match f_desc f with
        | Scalar _ w =>
            match integer_width w, v with
            | Some bw, VNum n =>
                if bw <=? w then Ok (put_chunk fl w n)
                else match mask_bits w with
                     | Some m => if m <? n then Err InvalidScalarValue else Ok (put_chunk fl w n)
                     | None => Panic ArithOverflow
                     end
            | None, _ => Panic GenAssert
            | _, _ => ill
            end
        | Typedef _ tid =>
            match lookup_decl fl tid with
            | Some (DEnum _ _ w) =>
                match integer_width w, v with
                | Some _, VNum n => Ok (put_chunk fl w n)
                | None, _ => Panic GenAssert
                | _, _ => ill
                end
            | Some (DStruct _ _ _ _) => rec_enc tid v
            | _ => Panic GenUnreachable
            end
        | _ => Panic GenUnreachable
        end
    end.

  (** what a bit-field of [width] bits found at [shift] adds to the pending list *)
  Definition bf_entry (f : field) (width shift : N) : eres (option (N * N * N)) :=
    match f_desc f with
    | Flag _ uses =>
        match uses with
        | [] => Panic UnwrapFail
        | (oid, setv) :: more =>
            if 1 <? setv then Panic ArithOverflow else
            let* _ :=
              match more with
              | [] => Ok tt
              | _ => match flag_consistent obj uses with
                     | Some true => Ok tt
                     | Some false => Err InconsistentConditionValue
                     | None => ill
                     end
              end in
            match is_present obj oid with
            | Some pr => Ok (Some ((if pr then setv else 1 - setv), 8, shift))
            | None => ill
            end
        end
    | Scalar id w =>
        match integer_width w, get_num fl all_fields cs obj id with
        | Some tw, Some n =>
            if w <? tw then
              match mask_bits w with
              | Some m => if m <? n then Err InvalidScalarValue else Ok (Some (n, tw, shift))
              | None => Panic ArithOverflow
              end
            else Ok (Some (n, tw, shift))
        | None, _ => Panic GenAssert
        | _, None => ill
        end
    | FixedEnum eid tid =>
        match integer_width width, enum_tags fl eid with
        | Some tw, Some (tags, _) =>
            match enum_tag_value tags tid with
            | Some v => Ok (Some (v, tw, shift))
            | None => Panic UnwrapFail
            end
        | None, _ => Panic GenAssert
        | _, None => Panic UnwrapFail
        end
    | FixedScalar _ v =>
        match integer_width width with
        | Some tw => Ok (Some (v, tw, shift))
        | None => Panic GenAssert
        end
    | Typedef id _ =>
        match integer_width width, get_num fl all_fields cs obj id with
        | Some tw, Some n => Ok (Some (n, tw, shift))
        | None, _ => Panic GenAssert
        | _, None => ill
        end
    | Reserved _ => Ok None
    | Size fid w =>
        match mask_bits w, integer_width w, value_field all_fields fid with
        | None, _, _ => Panic ArithOverflow
        | _, None, _ => Panic GenAssert
        | _, _, None => Panic UnwrapFail
        | Some m, Some tw, Some vf =>
            let asz :=
              match f_desc vf with
              | Payload (Some md) => Some (payload_size + md)
              | Payload None | Body => Some payload_size
              | Array aid _ _ _ _ =>
                  match obj_list obj aid with
                  | Some vs => array_octets fl rec_len vf vs
                  | None => None
                  end
              | _ => None
              end in
            match f_desc vf, asz with
            | (Payload _ | Body | Array _ _ _ _ _), Some a =>
                if m <? a then Err SizeOverflow else Ok (Some (a mod 2 ^ tw, tw, shift))
            | (Payload _ | Body | Array _ _ _ _ _), None => ill
            | _, _ => Panic GenAssert
            end
        end
    | ElementSize fid w =>
        match mask_bits w, integer_width w, obj_list obj fid with
        | None, _, _ => Panic ArithOverflow
        | _, None, _ => Panic GenAssert
        | _, _, None => ill
        | Some m, Some tw, Some vs =>
            match array_field d fid with
            | Some af =>
                match f_desc af with
                | Array _ _ (Some tid) _ _ =>
                    match map_opt_len rec_len tid vs with
                    | Some lens =>
                        let es := match lens with l :: _ => l | [] => 0 end in
                        if forallb (N.eqb es) lens then
                          if m <? es then Err SizeOverflow
                          else Ok (Some (es mod 2 ^ tw, tw, shift))
                        else Err InvalidArrayElementSize
                    | None => ill
                    end
                | _ => Panic GenTodo
                end
            | None => ill
            end
        end
    | Count fid w =>
        match integer_width w, obj_list obj fid with
        | None, _ => Panic GenAssert
        | _, None => ill
        | Some tw, Some vs =>
            if w <? tw then
              match mask_bits w with
              | Some m => if m <? len vs then Err CountOverflow
                          else Ok (Some (len vs mod 2 ^ tw, tw, shift))
              | None => Panic ArithOverflow
              end
            else Ok (Some (len vs mod 2 ^ tw, tw, shift))
        end
    | _ => Panic GenTodo
    end.

  Definition plain_here (f : field) (rest : list field) (shift : N) : eres (list byte) :=
    match f_desc f with
    | Padding _ => Ok []
    | Array id _ _ _ _ =>
        if negb (shift =? 0) then Panic GenAssert else
        match obj_list obj id with
        | None => ill
        | Some vs =>
            match next_padding rest with
            | Some pbits =>
                let poct := pbits / 8 in
                match array_octets_schema sch rec_len f vs with
                | Some asz =>
                    if poct <? asz then Err SizeOverflow
                    else
                      let* bs := put_elems fl rec_enc f vs in
                      Ok (bs ++ zeros (N.to_nat (poct - asz)))%list
                | None => ill
                end
            | None => put_elems fl rec_enc f vs
            end
        end
    | Typedef id tid =>
        if negb (shift =? 0) then Panic GenAssert else
        match lookup_decl fl tid, assoc id obj with
        | Some (DChecksum _ _ _), _ => Panic GenTodo
        | Some (DCustomField _ (Some w) _), Some (VNum n) =>
            match integer_width w with
            | Some _ => Ok (put_chunk fl w n)
            | None => Panic GenAssert
            end
        | Some (DStruct _ _ _ _), Some v => rec_enc tid v
        | Some (DCustomField _ None _), Some v => rec_enc tid v
        | Some _, None => ill
        | Some _, Some _ => ill
        | None, _ => Panic UnwrapFail
        end
    | Payload _ | Body => payload_act
    | _ => Panic GenTodo
    end.

  Local Notation enc := (enc_fields fl sch rec_enc rec_len d all_fields cs obj payload_act payload_size).

  Lemma enc_fields_cons f rest p shift :
    enc (f :: rest) p shift =
    match f_cond f with
    | Some _ =>
        if negb (shift =? 0) then Panic GenAssert else oapp (opt_here f) (enc rest p shift)
    | None =>
        if is_bitfield fl f then
          match field_size sch d f with
          | Some (SStatic width) =>
              let* entry := bf_entry f width shift in
              let p' := match entry with Some e => (p ++ [e])%list | None => p end in
              if (shift + width) mod 8 =? 0
              then oapp (pack_bit_fields fl p' (shift + width)) (enc rest [] 0)
              else enc rest p' (shift + width)
          | _ => Panic UnwrapFail
          end
        else oapp (plain_here f rest shift) (enc rest p shift)
    end.
  Proof. reflexivity. Qed.

  Lemma put_elems_cons f v vs :
    put_elems fl rec_enc f (v :: vs) = oapp (put_elem fl rec_enc f v) (put_elems fl rec_enc f vs).
  Proof. reflexivity. Qed.
  Local Notation lenf := (len_fields fl sch rec_len d obj payload_size).

  Definition opt_len (f : field) : option N :=
    match assoc (opt_id f) obj with
    | Some VNull => Some 0
    | Some v =>
        match f_desc f with
        | Scalar _ w => Some (w / 8)
        | Typedef _ tid =>
            match lookup_decl fl tid with
            | Some (DEnum _ _ w) => Some (w / 8)
            | Some (DStruct _ _ _ _) => rec_len tid v
            | _ => None
            end
        | _ => None
        end
    | None => None
    end.

  Definition plain_len (f : field) (rest : list field) : option N :=
    match f_desc f with
    | Padding _ => Some 0
    | Array id _ _ _ _ =>
        match next_padding rest with
        | Some p => Some (p / 8)
        | None =>
            match obj_list obj id with
            | Some vs => array_octets_schema sch rec_len f vs
            | None => None
            end
        end
    | Typedef id tid =>
        match type_static_bits sch tid with
        | Some s => Some (s / 8)
        | None => match assoc id obj with
                  | Some v => rec_len tid v
                  | None => None
                  end
        end
    | Payload _ | Body => Some payload_size
    | _ => None
    end.

  Lemma len_fields_cons f rest shift :
    lenf (f :: rest) shift =
    match f_cond f with
    | Some _ => add_len (opt_len f) (lenf rest shift)
    | None =>
        if is_bitfield fl f then
          match field_size sch d f with
          | Some (SStatic w) =>
              if (shift + w) mod 8 =? 0
              then add_len (Some ((shift + w) / 8)) (lenf rest 0)
              else lenf rest (shift + w)
          | _ => None
          end
        else add_len (plain_len f rest) (lenf rest shift)
    end.
  Proof. reflexivity. Qed.

  Definition ref_opt_here (f : field) : option (list seg) :=
    match assoc (opt_id f) obj with
    | None => None
    | Some VNull => Some []
    | Some v =>
        match f_desc f with
        | Scalar _ w => ref_enc_elem fl rec (Some w) None v
        | Typedef _ t => ref_enc_elem fl rec None (Some t) v
        | _ => None
        end
    end.

  Definition ref_plain_here (f : field) (rest : list field) : option (list seg) :=
    match f_desc f with
    | Padding _ => Some []
    | Array id _ _ _ _ =>
        match ref_array_elems fl rec d obj id with
        | Some ebs =>
            let bs := List.concat ebs in
            let es_ok := match decl_element_size d id with
                         | Some _ => all_same_length ebs
                         | None => true
                         end in
            if es_ok then
              match next_is_padding rest with
              | Some p =>
                  if seg_len bs <=? p
                  then Some (bs ++ [raw_seg (zeros (N.to_nat (p - seg_len bs)))])%list
                  else None
              | None => Some bs
              end
            else None
        | None => None
        end
    | Typedef id t =>
        match assoc id obj with
        | Some v => ref_enc_elem fl rec None (Some t) v
        | None => None
        end
    | Payload _ | Body => Some payload
    | _ => None
    end.

  Local Notation ref := (ref_enc_fields fl rec d all_fields cs obj payload).

  Lemma ref_enc_fields_cons f rest acc bits :
    ref (f :: rest) acc bits =
    match f_cond f with
    | Some _ => if negb (bits =? 0) then None else sapp (ref_opt_here f) (ref rest 0 0)
    | None =>
        if is_bitfield fl f then
          match ref_bitfield fl rec d all_fields cs obj payload f with
          | Some (v, w) =>
              if v <? 2 ^ w then
                if (bits + w) mod 8 =? 0
                then sapp (Some [int_seg (nbytes (bits + w)) (acc + v * 2 ^ bits)]) (ref rest 0 0)
                else ref rest (acc + v * 2 ^ bits) (bits + w)
              else None
          | None => None
          end
        else if negb (bits =? 0) then None else sapp (ref_plain_here f rest) (ref rest 0 0)
    end.
  Proof.
    cbn [ref_enc_fields]. unfold ref_opt_here, sapp. fold (opt_id f).
    destruct (f_cond f); [|reflexivity].
    destruct (negb (bits =? 0)); [reflexivity|].
    destruct (assoc (opt_id f) obj) as [[| | |]|]; try reflexivity.
    now destruct (ref rest 0 0).
  Qed.
End Fields.

(** One unit of fuel: the encoders of nested types are [rust_encode] / [rust_len_top] at
    the fuel that is left. *)
Lemma rust_enc_decl_S fuel fl sch d all_fields cs obj pa ps :
  rust_enc_decl (S fuel) fl sch d all_fields cs obj pa ps =
  let rec_len := rust_len_top fuel fl sch in
  let own := enc_fields fl sch (rust_encode fuel fl sch) rec_len d all_fields cs obj pa ps
                        (decl_fields d) [] 0 in
  match get_parent fl d with
  | Some p =>
      match len_fields fl sch rec_len d obj ps (decl_fields d) 0 with
      | Some own_size => rust_enc_decl fuel fl sch p all_fields cs obj own own_size
      | None => Panic UnwrapFail
      end
  | None => own
  end.
Proof. reflexivity. Qed.

Lemma rust_len_decl_S fuel fl sch d obj ps :
  rust_len_decl (S fuel) fl sch d obj ps =
  match len_fields fl sch (rust_len_top fuel fl sch) d obj ps (decl_fields d) 0 with
  | Some own =>
      match get_parent fl d with
      | Some p => rust_len_decl fuel fl sch p obj own
      | None => Some own
      end
  | None => None
  end.
Proof. reflexivity. Qed.

Definition container (d : decl) : bool :=
  match d with DStruct _ _ _ _ | DPacket _ _ _ _ => true | _ => false end.

(** What [T::encode] and [T::encoded_len] of the type [id] are on [v]: a refusal, the
    chunk of a sized custom field, or the declaration's own encoder on an object.  On a
    refusal the length is left arbitrary. *)
Inductive top_spec fuel fl sch id : value -> eres (list byte) -> option N -> Prop :=
| top_refused v k n : gen_panic k = true -> top_spec fuel fl sch id v (Panic k) n
| top_custom i w fn n :
    lookup_decl fl id = Some (DCustomField i (Some w) fn) ->
    top_spec fuel fl sch id (VNum n) (Ok (put_chunk fl w n)) (Some (w / 8))
| top_decl d o pl :
    lookup_decl fl id = Some d -> container d = true -> obj_payload o = Some pl ->
    top_spec fuel fl sch id (VObj o)
             (rust_enc_decl fuel fl sch d (iter_fields fl d) (iter_constraints fl d) o (Ok pl) (len pl))
             (rust_len_decl fuel fl sch d o (obj_payload_len o)).

Lemma rust_top_spec fuel fl sch id v :
  top_spec fuel fl sch id v (rust_encode fuel fl sch id v) (rust_len_top fuel fl sch id v).
Proof.
  unfold rust_encode, rust_len_top.
  destruct (lookup_decl fl id) as [d|] eqn:El; [|apply top_refused; reflexivity].
  destruct d as [ |i [w|] fn| | | | | ]; destruct v as [n| |l|o]; try (apply top_refused; reflexivity).
  1: destruct (integer_width w); [exact (top_custom _ _ _ _ _ _ _ _ El)|apply top_refused; reflexivity].
  (* packet, struct *)
  all: destruct (obj_payload o) eqn:Ep; [exact (top_decl _ _ _ _ _ _ _ El eq_refl Ep)|apply top_refused; reflexivity].
Qed.

Definition root_decl (d : decl) : Prop :=
  exists id fs, d = DPacket id [] fs None \/ d = DStruct id [] fs None.

Lemma root_decl_parent fl d : root_decl d -> get_parent fl d = None.
Proof. intros (id & fs & [-> | ->]); reflexivity. Qed.

Lemma root_decl_constraints fl d : root_decl d -> iter_constraints fl d = [].
Proof.
  intros (id & fs & [-> | ->]); unfold iter_constraints; destruct (chain_fuel fl); reflexivity.
Qed.

Lemma iter_fields_own fl d : exists more, iter_fields fl d = (decl_fields d ++ more)%list.
Proof.
  unfold iter_fields. destruct (chain_fuel fl); cbn [parents_and_self flat_map]; eexists; reflexivity.
Qed.

Lemma rust_encode_root fuel fl sch id d o pl :
  lookup_decl fl id = Some d -> root_decl d -> obj_payload o = Some pl ->
  rust_encode (S fuel) fl sch id (VObj o) =
  enc_fields fl sch (rust_encode fuel fl sch) (rust_len_top fuel fl sch) d (iter_fields fl d) [] o
             (Ok pl) (len pl) (decl_fields d) [] 0.
Proof.
  intros Hl Hr Hp. unfold rust_encode at 1. rewrite Hl.
  pose proof (root_decl_parent fl d Hr) as Hpar. pose proof (root_decl_constraints fl d Hr) as Hcs.
  destruct Hr as (i & fs & [-> | ->]); now rewrite Hp, rust_enc_decl_S, Hpar, Hcs.
Qed.

Lemma ref_segments_some fuel fl id d v ss :
  lookup_decl fl id = Some d -> ref_segments fuel fl id v = Some ss ->
  exists o pl,
    v = VObj o /\ obj_payload o = Some pl /\
    ref_enc_decl fuel fl d (iter_fields fl d) (iter_constraints fl d) o [raw_seg pl] = Some ss.
Proof.
  unfold ref_segments. intros ->. destruct v as [| | |o]; try discriminate.
  destruct (obj_payload o) as [pl|] eqn:Ep; [|destruct d; discriminate].
  destruct d; try discriminate; (destruct decl_payload, pl; try discriminate; eauto).
Qed.

Lemma ref_encode_root fuel fl id d v bs :
  lookup_decl fl id = Some d -> root_decl d -> ref_encode (S fuel) fl id v = Some bs ->
  exists o pl ss,
    v = VObj o /\ obj_payload o = Some pl /\
    ref_enc_fields fl (ref_rec_of (ref_enc_decl fuel fl) fl) d (iter_fields fl d) [] o [raw_seg pl]
                   (decl_fields d) 0 0 = Some ss /\
    bs = render (f_endian fl) ss.
Proof.
  intros Hl Hr Hbs. unfold ref_encode in Hbs.
  destruct (ref_segments (S fuel) fl id v) as [ss'|] eqn:Es; [|discriminate]. injection Hbs as <-.
  destruct (ref_segments_some _ _ _ _ _ _ Hl Es) as (o & pl & -> & Hp & Hd).
  cbn [ref_enc_decl] in Hd. rewrite (root_decl_parent fl d Hr), (root_decl_constraints fl d Hr) in Hd.
  destruct ref_enc_fields as [ss|] eqn:Ess; [|discriminate]. injection Hd as <-.
  now exists o, pl, ss.
Qed.
