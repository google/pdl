(** No run-time panic of the emitted decoder for files with arrays: [add_array_field] is
    covered under side conditions that leave out exactly the known defects (a [_count_]
    whose product with the element width leaves usize, an [_elementsize_] whose value is 0)
    and one more that the model exhibits (element width 0 with a size / unknown shape:
    [% 0]).

    The element reads of scalar / enum arrays are NOT individually guarded in the emitted
    code ([get_uint] panics when short): the guard is on the total
    ([check_size work (n * e)]), so the proof carries the invariant
    "remaining length >= remaining count * element width" through [loop_count]. *)
From Coq Require Import NArith List String Bool Lia.
From Coq Require Import Strings.Byte.
From PDL Require Import Base.Bits Base.Outcome Lang.Ast Lang.Sexp Analyzer.Schema Rust.Enum
     Sem.RefEncode Rust.Decode Proofs.GenPre Proofs.ListFacts Proofs.DecodeSteps Proofs.DecodeSafe.
Import ListNotations.
Open Scope N_scope.

Lemma get_uint_lt e w sp x sp' ctw :
  get_uint e w sp = Ok (x, sp') -> integer_width w = Some ctw -> x < 2 ^ ctw.
Proof.
  intros H Hi. apply get_uint_ok in H. destruct H as (_ & -> & _).
  apply integer_width_bounds in Hi as [Hi _].
  eapply N.lt_le_trans; [apply of_E_lt|].
  change 256 with (2 ^ 8). rewrite <- N.pow_mul_r. apply N.pow_le_mono_r; [discriminate|].
  (* at most w / 8 octets were read *)
  pose proof (firstn_le_length (N.to_nat (w / 8)) sp) as Hn.
  pose proof (N.mul_div_le w 8) as Hw. lia.
Qed.

Lemma chunk_value_lt (single : bool) cv sh w vtw ctw :
  cv < 2 ^ ctw -> chunk_value single cv ctw sh w vtw < 2 ^ vtw.
Proof.
  intros Hcv. unfold chunk_value. destruct (vtw <? ctw) eqn:Ev.
  - apply N.mod_lt, N.pow_nonzero. discriminate.
  - (* no narrowing cast: shifting and masking only make the chunk value smaller *)
    apply N.ltb_ge in Ev.
    apply N.le_lt_trans with cv; [|apply N.lt_le_trans with (1 := Hcv), pow2_le_mono, Ev].
    transitivity (N.shiftr cv sh).
    + destruct (negb single && (w <? vtw)); [|reflexivity].
      rewrite N.land_ones. apply N.mod_le, N.pow_nonzero. discriminate.
    + rewrite N.shiftr_div_pow2. apply N.div_le_upper_bound; [apply N.pow_nonzero; discriminate|].
      rewrite <- (N.mul_1_l cv) at 1. apply N.mul_le_mono_r. pose proof (pow2_pos sh). lia.
Qed.

Section LoopSafe.
  Variable pe : list byte -> dres (value * list byte).

  Section Everywhere.
    Hypothesis pe_nrp : forall sp, no_rt_panic (pe sp).

    Lemma loop_count_nrp : forall lf n sp acc, no_rt_panic (loop_count pe lf n sp acc).
    Proof.
      induction lf as [|lf IH]; intros n sp acc; cbn [loop_count]; destruct (n =? 0); try exact I.
      apply nrp_bind; [apply pe_nrp|]. intros [v sp'] _. apply IH.
    Qed.

    Lemma loop_while_nrp : forall lf sp acc, no_rt_panic (loop_while pe lf sp acc).
    Proof.
      induction lf as [|lf IH]; intros sp acc; destruct sp as [|b sp]; cbn [loop_while]; try exact I.
      apply nrp_bind; [apply pe_nrp|]. intros [v sp'] _. apply IH.
    Qed.

    Lemma loop_chunks_nrp : forall lf es k sp acc, no_rt_panic (loop_chunks pe lf es k sp acc).
    Proof.
      induction lf as [|lf IH]; intros es k sp acc; cbn [loop_chunks];
        destruct ((k =? 0) || (len sp =? 0)); try exact I.
      apply nrp_bind; [apply pe_nrp|]. intros [v rest] _.
      destruct rest; [apply IH|exact I].
    Qed.

    Lemma chunks_nrp lf es k sp : es <> 0 -> no_rt_panic (chunks lf pe es k sp).
    Proof.
      intros Hes. unfold chunks. apply N.eqb_neq in Hes. rewrite Hes. apply loop_chunks_nrp.
    Qed.
  End Everywhere.

  Section Guarded.
    Variable c : N.
    Hypothesis pe_guard : forall sp, c <= len sp -> no_rt_panic (pe sp).
    Hypothesis pe_cons : forall sp v sp', pe sp = Ok (v, sp') -> len sp <= len sp' + c.

    Lemma loop_count_guarded : forall lf n sp acc,
      n * c <= len sp -> no_rt_panic (loop_count pe lf n sp acc).
    Proof.
      induction lf as [|lf IH]; intros n sp acc Hn; cbn [loop_count];
        destruct (n =? 0) eqn:En; try exact I.
      apply N.eqb_neq in En.
      assert (Hc : c <= n * c) by (rewrite <- (N.mul_1_l c) at 1; apply N.mul_le_mono_r; lia).
      apply nrp_bind; [apply pe_guard; lia|]. intros [v sp'] Hv.
      apply IH. apply pe_cons in Hv. rewrite N.mul_sub_distr_r, N.mul_1_l. lia.
    Qed.
  End Guarded.
End LoopSafe.

Section Arr.
  Variable oc : bool.
  Variable fl : file.
  Variable sch : schema.
  Variable rec : string -> list byte -> dres (value * list byte).
  Variable lf : nat.
  Hypothesis rec_ok : forall t sp, no_rt_panic (rec t sp).

  (** octets read by one unguarded [get_uint] of the element parser; [None] when the
      element is parsed by [T::decode] (or the generator refuses) *)
  Definition pe_cost (width : option N) (tid : option string) : option N :=
    match width with
    | Some w => Some (w / 8)
    | None =>
        match tid with
        | Some t => match lookup_decl fl t with
                    | Some (DEnum _ _ w) => Some (w / 8)
                    | _ => None
                    end
        | None => None
        end
    end.

  Lemma pe_cost_none width tid :
    pe_cost width tid = None -> forall sp, no_rt_panic (parse_element fl rec width tid sp).
  Proof.
    unfold pe_cost, parse_element. intros H sp. destruct width as [w|]; [discriminate|].
    destruct tid as [t|]; [|reflexivity].
    destruct (lookup_decl fl t) as [[]|]; try discriminate; apply rec_ok.
  Qed.

  Lemma pe_cost_some width tid c :
    pe_cost width tid = Some c ->
    exists w chk,
      c = w / 8 /\ (forall x, runtime_safe (chk x : dres unit)) /\
      forall sp, parse_element fl rec width tid sp =
                 let* (x, sp') := get_uint (E fl) w sp in let* _ := chk x in Ok (VNum x, sp').
  Proof.
    unfold pe_cost, parse_element. destruct width as [w|].
    - intros [= <-]. exists w, (fun _ => Ok tt). repeat split.
    - destruct tid as [t|]; [|discriminate].
      destruct (lookup_decl fl t) as [[]|]; try discriminate.
      intros [= <-]. eexists _, (enum_check fl t).
      split; [reflexivity|]. split; [apply enum_check_safe|reflexivity].
  Qed.

  Lemma pe_cost_guard width tid c :
    pe_cost width tid = Some c ->
    forall sp, c <= len sp -> no_rt_panic (parse_element fl rec width tid sp).
  Proof.
    intros H sp Hc. destruct (pe_cost_some _ _ _ H) as (w & chk & -> & Hchk & Heq). rewrite Heq.
    apply N.ltb_ge in Hc. apply nrp_bind; [apply safe_nrp, guarded_safe, Hc|]. intros [x sp'] _.
    apply nrp_bind; [apply safe_nrp, Hchk|]. intros; exact I.
  Qed.

  Lemma pe_cost_cons width tid c :
    pe_cost width tid = Some c ->
    forall sp v sp', parse_element fl rec width tid sp = Ok (v, sp') -> len sp <= len sp' + c.
  Proof.
    intros H sp v sp' Hp. destruct (pe_cost_some _ _ _ H) as (w & chk & -> & _ & Heq).
    rewrite Heq in Hp. repeat ok_step Hp. injection Hp as _ <-.
    apply get_uint_ok in E. destruct E as (Hl & _ & ->). rewrite len_skipn. clear - Hl. lia.
  Qed.

  (** the element width and shape computed by [add_array_field] *)
  Definition ew_of (d : decl) (id : string) (width : option N) (tid : option string)
    : dres elem_width :=
    match width with
    | Some w => if w mod 8 =? 0 then Ok (EWStatic (w / 8)) else Panic GenAssert
    | None =>
        match tid with
        | None => Panic UnwrapFail
        | Some t =>
            match lookup_decl fl t with
            | None => Panic UnwrapFail
            | Some _ =>
                match type_total sch t with
                | None => Panic UnwrapFail
                | Some (SStatic w) =>
                    if w mod 8 =? 0 then Ok (EWStatic (w / 8)) else Panic GenAssert
                | Some _ =>
                    match decl_element_size d id with
                    | Some _ => Ok (EWDynamic (esize_ident id))
                    | None => Ok EWUnknown
                    end
                end
            end
        end
    end.

  Definition shape_of (d : decl) (id : string) (size : option N) : arr_shape :=
    match size with
    | Some n => ShStatic n
    | None =>
        match decl_array_size d id with
        | Some g => match f_desc g with
                    | Count _ _ => ShCount (count_ident id)
                    | Size _ _ => ShSize (size_ident id)
                    | _ => ShUnknown
                    end
        | None => ShUnknown
        end
    end.

  Lemma add_array_field_eq d st id width tid size padding :
    add_array_field oc fl sch rec lf d st id width tid size padding =
    let* ew := ew_of d id width tid in
    let* (work, after, padded) := arr_work st padding in
    let* (vs, work') := arr_elems oc lf (parse_element fl rec width tid) st ew
                                  (shape_of d id size) work in
    Ok (add_val (set_span st (match after with Some t => t | None => work' end)) id (VList vs)).
  Proof. reflexivity. Qed.

  Lemma ew_of_nrp d id width tid : no_rt_panic (ew_of d id width tid).
  Proof.
    unfold ew_of. destruct width as [w|].
    - destruct (w mod 8 =? 0); [exact I|reflexivity].
    - destruct tid as [t|]; [|reflexivity].
      destruct (lookup_decl fl t); [|reflexivity].
      destruct (type_total sch t) as [[w| |]|]; try reflexivity.
      1: destruct (w mod 8 =? 0); [exact I|reflexivity].
      all: destruct (decl_element_size d id); exact I.
  Qed.

  (** the unguarded element read fits in the element width used by the guards *)
  Definition cost_ok (width : option N) (tid : option string) (e : N) : bool :=
    match pe_cost width tid with
    | Some c => c <=? e
    | None => true
    end.

  Definition no_cost (width : option N) (tid : option string) : bool :=
    match pe_cost width tid with None => true | Some _ => false end.

  Lemma loop_count_static width tid e n work acc :
    cost_ok width tid e = true -> n * e <= len work ->
    no_rt_panic (loop_count (parse_element fl rec width tid) lf n work acc).
  Proof.
    unfold cost_ok. intros Hc Hn. destruct (pe_cost width tid) as [c|] eqn:Ec.
    - apply N.leb_le in Hc.
      apply (loop_count_guarded _ c (pe_cost_guard _ _ _ Ec) (pe_cost_cons _ _ _ Ec)).
      apply N.le_trans with (2 := Hn), N.mul_le_mono_l, Hc.
    - apply loop_count_nrp. apply pe_cost_none. exact Ec.
  Qed.

  (** The side conditions, on the run-time state.  [EWStatic], count shape: the product
      stays in usize (or arithmetic wraps and every element goes through [T::decode]).
      [EWStatic], size / unknown shape: the width is not 0.  [EWDynamic]: the element-size
      local is not 0 and the products stay in usize when overflow checks are on. *)
  Definition elems_pre (st : dstate) (width : option N) (tid : option string)
             (ew : elem_width) (shape : arr_shape) : Prop :=
    match ew with
    | EWStatic e =>
        cost_ok width tid e = true /\
        match shape with
        | ShStatic _ => True
        | ShCount cf =>
            forall n, local st cf = Ok n ->
                      n * e < two64 \/ (oc = false /\ pe_cost width tid = None)
        | ShSize _ | ShUnknown => e <> 0
        end
    | EWUnknown => pe_cost width tid = None
    | EWDynamic esf =>
        pe_cost width tid = None /\
        forall es, local st esf = Ok es ->
                   es <> 0 /\
                   (oc = false \/
                    match shape with
                    | ShStatic n => n * es < two64
                    | ShCount cf => forall n, local st cf = Ok n -> n * es < two64
                    | ShSize _ | ShUnknown => True
                    end)
    end.

  Definition array_pre (d : decl) (st : dstate) (id : string) (width : option N)
             (tid : option string) (size : option N) : Prop :=
    match ew_of d id width tid with
    | Ok ew => elems_pre st width tid ew (shape_of d id size)
    | _ => True
    end.

  Lemma umul_small a b : a * b < two64 -> umul oc a b = Ok (a * b).
  Proof. intros H. unfold umul. apply N.ltb_lt in H. rewrite H. reflexivity. Qed.

  Lemma umul_nrp a b : oc = false \/ a * b < two64 -> no_rt_panic (umul oc a b).
  Proof. intros [H|H]; [unfold umul; rewrite H; now destruct (_ <? _) | now rewrite umul_small]. Qed.

  Lemma umul_comm a b : umul oc a b = umul oc b a.
  Proof. unfold umul. rewrite (N.mul_comm a b). reflexivity. Qed.

  Lemma nrp_rewrap {A B} (x : dres (A * B)) :
    no_rt_panic x -> no_rt_panic (let* (a, b) := x in Ok (a, b)).
  Proof. intros H. apply nrp_bind; [exact H|]. intros [a b] _. exact I. Qed.

  (** the octets a size field announces are there *)
  Lemma sized_nrp {A} st sf work (k : N -> dres A) :
    (forall asz, (len work <? asz) = false -> no_rt_panic (k asz)) ->
    no_rt_panic (let* asz := (let* n := local st sf in let* _ := check_size work n in Ok n) in
                 k asz).
  Proof.
    intros Hk. unfold local. destruct (assoc sf (st_locals st)) as [n|]; [|reflexivity].
    cbn [bind]. unfold check_size. destruct (len work <? n) eqn:Hu; [exact I|].
    cbn [bind]. apply Hk, Hu.
  Qed.

  (** the number of elements in [asz] octets, [e] octets each: they fit *)
  Lemma count_of_size_nrp {A} e asz (k : N -> dres A) :
    e <> 0 -> (forall cnt, cnt * e <= asz -> no_rt_panic (k cnt)) ->
    no_rt_panic (let* cnt := if e =? 1 then Ok asz
                             else if e =? 0 then Panic DivZero
                                  else if asz mod e =? 0 then Ok (asz / e) else Err ArraySizeError in
                 k cnt).
  Proof.
    intros He Hk. destruct (e =? 1) eqn:E1; cbn [bind].
    - apply N.eqb_eq in E1. subst e. apply Hk. rewrite N.mul_1_r. reflexivity.
    - apply N.eqb_neq in He. rewrite He. apply N.eqb_neq in He.
      destruct (asz mod e =? 0); [|exact I]. cbn [bind].
      apply Hk. rewrite N.mul_comm. apply N.mul_div_le, He.
  Qed.

  Section Elems.
    Variables (st : dstate) (width : option N) (tid : option string) (work : list byte).
    Let pe := parse_element fl rec width tid.

    (** static element width: [check_size] guards the total, the loop keeps
        "count left * width <= octets left" *)
    Lemma static_elems_nrp e shape :
      elems_pre st width tid (EWStatic e) shape ->
      no_rt_panic (arr_elems oc lf pe st (EWStatic e) shape work).
    Proof.
      intros [Hcost Hsh].
      assert (Hloop : forall cnt, cnt * e <= len work ->
                no_rt_panic (let* (vs, w') := loop_count pe lf cnt work [] in Ok (vs, w'))).
      { intros cnt Hc. apply nrp_rewrap, (loop_count_static _ _ e); assumption. }
      destruct shape as [n|cf|sf|]; cbn [arr_elems].
      - apply nrp_check. intros _ Hu. apply Hloop, N.ltb_ge, Hu.
      - apply nrp_bind; [apply local_nrp|]. intros n Hn.
        destruct (Hsh n Hn) as [Hlt|[Hoc Hnone]].
        + rewrite (umul_small _ _ Hlt). cbn [bind].
          apply nrp_check. intros _ Hu. apply Hloop, N.ltb_ge, Hu.
        + (* the product wraps, the guard says nothing: every element is guarded itself *)
          apply nrp_bind; [apply umul_nrp; left; exact Hoc|]. intros t _.
          apply nrp_check. intros _ _.
          apply nrp_rewrap, loop_count_nrp, pe_cost_none, Hnone.
      - apply sized_nrp. intros asz Hu. apply N.ltb_ge in Hu.
        apply count_of_size_nrp; [exact Hsh|]. intros cnt Hc.
        apply Hloop, N.le_trans with (1 := Hc), Hu.
      - cbn [bind]. apply count_of_size_nrp; [exact Hsh|]. exact Hloop.
    Qed.

    (** unknown element width: every element goes through [T::decode] *)
    Lemma unknown_elems_nrp shape :
      elems_pre st width tid EWUnknown shape ->
      no_rt_panic (arr_elems oc lf pe st EWUnknown shape work).
    Proof.
      intros Hnone. pose proof (pe_cost_none _ _ Hnone : forall sp, no_rt_panic (pe sp)) as Hpe.
      destruct shape as [n|cf|sf|]; cbn [arr_elems].
      - apply nrp_rewrap, loop_count_nrp, Hpe.
      - apply nrp_bind; [apply local_nrp|]. intros n _. apply nrp_rewrap, loop_count_nrp, Hpe.
      - apply nrp_bind; [apply local_nrp|]. intros n _. apply nrp_check. intros _ Hu.
        apply nrp_bind; [apply safe_nrp, guarded_safe, Hu|]. intros [h t] _.
        apply nrp_bind; [apply loop_while_nrp, Hpe|]. intros [vs w'] _. exact I.
      - apply nrp_rewrap, loop_while_nrp, Hpe.
    Qed.

    Lemma chunked_nrp es asz :
      (forall sp, no_rt_panic (pe sp)) -> es <> 0 -> (len work <? asz) = false ->
      no_rt_panic (if es =? 0 then Panic DivZero
                   else if negb (asz mod es =? 0) then Err ArraySizeError
                        else let* vs := chunks lf pe es (asz / es) work in
                             let* w' := slice_from asz work in Ok (vs, w')).
    Proof.
      intros Hpe Hes Hu. apply N.eqb_neq in Hes. rewrite Hes. apply N.eqb_neq in Hes.
      destruct (negb (asz mod es =? 0)); [exact I|].
      apply nrp_bind; [apply chunks_nrp; assumption|]. intros vs _.
      apply nrp_bind; [apply safe_nrp, guarded_safe, Hu|]. intros; exact I.
    Qed.

    (** element width in a local: elements through [T::decode], in chunks of that width *)
    Lemma dynamic_elems_nrp esf shape :
      elems_pre st width tid (EWDynamic esf) shape ->
      no_rt_panic (arr_elems oc lf pe st (EWDynamic esf) shape work).
    Proof.
      intros [Hnone Hes].
      pose proof (pe_cost_none _ _ Hnone : forall sp, no_rt_panic (pe sp)) as Hpe.
      destruct shape as [n|cf|sf|]; cbn [arr_elems];
        (apply nrp_bind; [apply local_nrp|]); intros es Hl; destruct (Hes es Hl) as [Hnz Hov].
      - apply nrp_bind.
        { destruct (n =? 1); [exact I | apply umul_nrp, Hov]. }
        intros asz _. apply nrp_check. intros _ Hu.
        apply nrp_bind; [apply chunks_nrp; assumption|]. intros vs _.
        apply nrp_bind; [apply safe_nrp, guarded_safe, Hu|]. intros w' _.
        destruct (len vs =? n); exact I.
      - apply nrp_bind; [apply local_nrp|]. intros n Hn.
        apply nrp_bind.
        { apply umul_nrp. destruct Hov as [Hoc|Hlt]; [left; exact Hoc | right; exact (Hlt n Hn)]. }
        intros t Ht. apply nrp_check. intros _ Hu.
        apply nrp_bind; [apply chunks_nrp; assumption|]. intros vs _.
        rewrite (umul_comm es n), Ht. cbn [bind].
        apply nrp_bind; [apply safe_nrp, guarded_safe, Hu|]. intros; exact I.
      - apply sized_nrp. intros asz Hu. apply chunked_nrp; assumption.
      - cbn [bind]. apply chunked_nrp; [assumption|assumption|apply N.ltb_irrefl].
    Qed.
  End Elems.

  Theorem arr_elems_nrp st width tid ew shape work :
    elems_pre st width tid ew shape ->
    no_rt_panic (arr_elems oc lf (parse_element fl rec width tid) st ew shape work).
  Proof.
    destruct ew; [apply static_elems_nrp | apply dynamic_elems_nrp | apply unknown_elems_nrp].
  Qed.

  Theorem add_array_field_nrp d st id width tid size padding :
    array_pre d st id width tid size ->
    no_rt_panic (add_array_field oc fl sch rec lf d st id width tid size padding).
  Proof.
    unfold array_pre. intros Hpre. rewrite add_array_field_eq.
    apply nrp_bind; [apply ew_of_nrp|]. intros ew Hew. rewrite Hew in Hpre.
    apply nrp_bind.
    { destruct padding as [pbits|]; [|exact I]. cbn [arr_work]. apply nrp_check. intros _ Hu.
      apply nrp_bind; [apply safe_nrp, guarded_safe, Hu|]. intros [h t] _. exact I. }
    intros [[work after] padded] _.
    apply nrp_bind; [apply arr_elems_nrp, Hpre|]. intros [vs work'] _. exact I.
  Qed.

  Lemma optional_locals st f c st' :
    add_optional_field fl rec st f c = Ok st' -> st_locals st' = st_locals st.
  Proof. unfold add_optional_field. intros H. repeat ok_step H; inversion H; reflexivity. Qed.

  Lemma dec_other_locals d pad st fd shift st' :
    dec_other oc fl sch rec lf d pad st fd shift = Ok st' -> st_locals st' = st_locals st.
  Proof.
    destruct fd; cbn [dec_other]; intros H; try discriminate;
      try rewrite add_array_field_eq in H; unfold add_typedef_field, add_payload_field in H;
      repeat ok_step H; inversion H; reflexivity.
  Qed.

  Definition local_name (fd : fdesc) : option string :=
    match fd with
    | Scalar id _ | Flag id _ | Typedef id _ => Some id
    | Size fid _ => Some (size_ident fid)
    | ElementSize fid _ => Some (esize_ident fid)
    | Count fid _ => Some (count_ident fid)
    | _ => None
    end.

  Lemma field_local_name f v :
    field_local f v = match local_name (f_desc f) with Some k => [(k, v)] | None => [] end.
  Proof. unfold field_local. destruct (f_desc f); reflexivity. Qed.

  Section Bounded.
    Variable d : decl.
    Variable cb : string -> N.       (* strict upper bound of the local of that name *)

    Definition lbounded (l : list (string * N)) : Prop :=
      forall k v, assoc k l = Some v -> v < cb k.

    Lemma lbounded_cons k v l : v < cb k -> lbounded l -> lbounded ((k, v) :: l).
    Proof.
      intros Hv Hl k' v' H. cbn [assoc] in H. destruct (String.eqb k' k) eqn:Ek.
      - apply String.eqb_eq in Ek. subst. inversion H; subst. exact Hv.
      - apply Hl. exact H.
    Qed.

    Lemma lbounded_local st k n : lbounded (st_locals st) -> local st k = Ok n -> n < cb k.
    Proof.
      unfold local. intros Hl H. destruct (assoc k (st_locals st)) as [v|] eqn:Ea; [|discriminate].
      injection H as <-. apply Hl, Ea.
    Qed.

    (** the value a bit-field binds is below the bound of its local *)
    Definition bound_ok (f : field) : bool :=
      match field_size sch d f with
      | Some (SStatic w) =>
          match integer_width w, local_name (f_desc f) with
          | Some vtw, Some k => 2 ^ vtw <=? cb k
          | _, _ => true
          end
      | _ => true
      end.

    Lemma bound_ok_spec f :
      bound_ok f = true <->
      forall w vtw k, field_size sch d f = Some (SStatic w) -> integer_width w = Some vtw ->
                      local_name (f_desc f) = Some k -> 2 ^ vtw <= cb k.
    Proof.
      unfold bound_ok. split.
      - intros H w vtw k Hs Hw Hk. rewrite Hs, Hw, Hk in H. apply N.leb_le, H.
      - intros H. destruct (field_size sch d f) as [[w| |]|]; try reflexivity.
        destruct (integer_width w) as [vtw|] eqn:Hw; [|reflexivity].
        destruct (local_name (f_desc f)) as [k|]; [|reflexivity].
        apply N.leb_le, (H w vtw k eq_refl Hw eq_refl).
    Qed.

    (** The static counterpart of [array_pre].  [EWDynamic] is refused although
        [dynamic_elems_nrp] covers it: the element size is a run-time value that no static
        bound keeps from 0 (F02).  [cb cf * e <=? two64], not [<?]: [cb] is a strict bound.
        The remaining outcomes of [ew_of] are refusals of the generator. *)
    Definition array_ok (id : string) (width : option N) (tid : option string)
               (size : option N) : bool :=
      match ew_of d id width tid with
      | Ok (EWStatic e) =>
          cost_ok width tid e &&
          match shape_of d id size with
          | ShStatic _ => true
          | ShCount cf => (cb cf * e <=? two64) || (negb oc && no_cost width tid)
          | ShSize _ | ShUnknown => negb (e =? 0)
          end
      | Ok EWUnknown => no_cost width tid
      | Ok (EWDynamic _) => false
      | _ => true
      end.

    Lemma array_ok_pre st id width tid size :
      lbounded (st_locals st) -> array_ok id width tid size = true ->
      array_pre d st id width tid size.
    Proof.
      intros Hl. unfold array_ok, array_pre, no_cost.
      destruct (ew_of d id width tid) as [[e|esf|]| | |]; try (intros; exact I); try discriminate;
        cbn [elems_pre].
      - intros H. apply andb_true_iff in H. destruct H as [Hc Hs]. split; [exact Hc|].
        destruct (shape_of d id size) as [n|cf|sf|]; [exact I| | |].
        2,3: apply N.eqb_neq, negb_true_iff, Hs.
        intros n Hn. apply (lbounded_local _ _ _ Hl) in Hn.
        apply orb_true_iff in Hs. destruct Hs as [Hs|Hs].
        + left. apply N.leb_le in Hs.
          destruct (N.eq_dec e 0) as [->|He]; [rewrite N.mul_0_r; reflexivity|].
          apply N.lt_le_trans with (2 := Hs), N.mul_lt_mono_pos_r; [clear - He; lia|exact Hn].
        + right. apply andb_true_iff in Hs. destruct Hs as [Hoc Hn0].
          split; [destruct oc; [discriminate|reflexivity]|].
          destruct (pe_cost width tid); [discriminate|reflexivity].
      - intros H. destruct (pe_cost width tid); [discriminate|reflexivity].
    Qed.

    (** [simple_field] with arrays let in under [array_ok] and a bound on what a bit-field
        binds; [| _ => true] takes padding, payload and body, which are safe, and the kinds
        the generator refuses *)
    Definition arr_field (f : field) : bool :=
      match f_cond f with
      | Some _ => true
      | None =>
          if is_bitfield fl f then bound_ok f else
          match f_desc f with
          | Typedef _ tid => safe_typedef fl sch tid
          | Array id w t _ sz => array_ok id w t sz
          | _ => true
          end
      end.

    Definition chunk_bounded (chunk : list (N * field)) : Prop :=
      forallb (fun sf => bound_ok (snd sf)) chunk = true.

    Lemma chunk_field_bounded single cv ctw size st sf st' :
      cv < 2 ^ ctw -> bound_ok (snd sf) = true -> lbounded (st_locals st) ->
      chunk_field fl sch single cv ctw size st d sf = Ok st' -> lbounded (st_locals st').
    Proof.
      destruct sf as [sh f]. cbn [snd]. intros Hcv Hb Hl H.
      apply chunk_field_ok in H. destruct H as (w & vtw & Hs & Hw & _ & ->).
      cbn [put_field st_locals]. rewrite field_local_name.
      destruct (local_name (f_desc f)) as [k|] eqn:Hk; [|exact Hl].
      apply lbounded_cons; [|exact Hl].
      apply N.lt_le_trans with (2 ^ vtw); [apply chunk_value_lt, Hcv|].
      apply (proj1 (bound_ok_spec f) Hb w vtw k Hs Hw Hk).
    Qed.

    Lemma chunk_fields_bounded single cv ctw size cs : forall st st',
      cv < 2 ^ ctw -> chunk_bounded cs -> lbounded (st_locals st) ->
      chunk_fields fl sch single cv ctw size st d cs = Ok st' -> lbounded (st_locals st').
    Proof.
      unfold chunk_bounded.
      induction cs as [|c cs IH]; intros st st' Hcv Hb Hl H; cbn [chunk_fields] in H.
      - inversion H; subst. exact Hl.
      - cbn [forallb] in Hb. apply andb_true_iff in Hb. destruct Hb as [Hc Hb].
        ok_step H. apply (IH a st' Hcv Hb); [|exact H].
        apply (chunk_field_bounded _ _ _ _ _ _ _ Hcv Hc Hl E).
    Qed.

    Lemma dec_chunk_bounded st chunk shift st' :
      chunk_bounded chunk -> lbounded (st_locals st) ->
      dec_chunk fl sch d st chunk shift = Ok st' -> lbounded (st_locals st').
    Proof.
      unfold dec_chunk. intros Hch Hl H. ok_step H.
      destruct (integer_width shift) as [ctw|] eqn:Ectw; [|discriminate].
      destruct (is_single_reserved chunk).
      - ok_step H. inversion H; subst. exact Hl.
      - apply bind_ok_inv in H. destruct H as [[cv sp'] [Hg H]].
        exact (chunk_fields_bounded _ cv ctw _ _ (set_span st sp') st'
                 (get_uint_lt _ _ _ _ _ _ Hg Ectw) Hch Hl H).
    Qed.

    Lemma dec_field_bounded pad f st chunk shift st' chunk' shift' :
      arr_field f = true -> chunk_bounded chunk -> lbounded (st_locals st) ->
      dec_field oc fl sch rec lf d pad f st chunk shift = Ok (st', chunk', shift') ->
      chunk_bounded chunk' /\ lbounded (st_locals st').
    Proof.
      unfold dec_field, arr_field. intros Hf Hch Hl H. destruct (f_cond f) as [c|].
      { ok_step H. inversion H; subst. rewrite (optional_locals _ _ _ _ E). auto. }
      destruct (is_bitfield fl f).
      - assert (Hch' : chunk_bounded (chunk ++ [(shift, f)])).
        { unfold chunk_bounded. rewrite forallb_app, Hch. cbn [forallb snd]. rewrite Hf; reflexivity. }
        destruct (field_size sch d f) as [[w| |]|]; try discriminate.
        destruct ((shift + w) mod 8 =? 0).
        + ok_step H. inversion H; subst. split; [reflexivity|].
          exact (dec_chunk_bounded _ _ _ _ Hch' Hl E).
        + inversion H; subst. auto.
      - ok_step H. inversion H; subst. rewrite (dec_other_locals _ _ _ _ _ _ E). auto.
    Qed.

    Theorem dec_fields_arrays_nrp : forall fs st chunk shift,
      forallb arr_field fs = true -> chunk_bounded chunk -> lbounded (st_locals st) ->
      no_rt_panic (dec_fields oc fl sch rec lf d fs st chunk shift).
    Proof.
      induction fs as [|f fs IH]; intros st chunk shift Hb Hch Hl; [exact I|].
      cbn [forallb] in Hb. apply andb_true_iff in Hb. destruct Hb as [Hf Hb].
      rewrite dec_fields_cons. apply nrp_bind.
      - apply dec_field_nrp; [exact rec_ok|]. intros Ec Eb.
        unfold arr_field in Hf. rewrite Ec, Eb in Hf.
        destruct (f_desc f); try exact I; [|exact Hf].
        apply add_array_field_nrp, array_ok_pre; assumption.
      - intros [[st' chunk'] shift'] Hst.
        destruct (dec_field_bounded _ _ _ _ _ _ _ _ Hf Hch Hl Hst). apply IH; assumption.
    Qed.
  End Bounded.
End Arr.


(** A bound for the local [k] of declaration [d]: the widest backing integer among the
    fields that bind a local of that name (a later binding shadows an earlier one). *)
Definition cb_of (fl : file) (sch : schema) (d : decl) (k : string) : N :=
  fold_right
    (fun f acc =>
       match field_size sch d f, local_name (f_desc f) with
       | Some (SStatic w), Some k' =>
           if String.eqb k k'
           then match integer_width w with Some vtw => N.max (2 ^ vtw) acc | None => acc end
           else acc
       | _, _ => acc
       end) 0 (decl_fields d).

Definition arr_decl (oc : bool) (fl : file) (sch : schema) (d : decl) : bool :=
  forallb (arr_field oc fl sch d (cb_of fl sch d)) (decl_fields d).

Definition arrays_file (oc : bool) (fl : file) (sch : schema) : Prop :=
  forall t d, lookup_decl fl t = Some d -> arr_decl oc fl sch d = true.

Definition arrays_fileb (oc : bool) (fl : file) (sch : schema) : bool :=
  forallb (arr_decl oc fl sch) (f_decls fl).

Lemma arrays_fileb_sound oc fl sch : arrays_fileb oc fl sch = true -> arrays_file oc fl sch.
Proof. exact (lookup_decl_forallb _ fl). Qed.

Theorem rust_decode_arrays_nrp fuel oc fl sch id bs :
  arrays_file oc fl sch -> no_rt_panic (rust_decode fuel oc fl sch id bs).
Proof.
  intros Hfile. apply rust_decode_nrp with (good := fun d => arr_decl oc fl sch d = true) (2 := Hfile).
  intros rec lf d sp Hrec Hd.
  apply (dec_fields_arrays_nrp oc fl sch rec lf Hrec d (cb_of fl sch d));
    [exact Hd|reflexivity|intros k v H; discriminate H].
Qed.

(** the array-free class of DecodeSafe.v is included: [cb_of] bounds every bit-field *)
Lemma cb_of_ge fl sch d f w vtw k :
  In f (decl_fields d) -> field_size sch d f = Some (SStatic w) ->
  integer_width w = Some vtw -> local_name (f_desc f) = Some k ->
  2 ^ vtw <= cb_of fl sch d k.
Proof.
  unfold cb_of. generalize (decl_fields d) as l.
  induction l as [|g l IH]; intros Hin Hfs Hiw Hln; [destruct Hin|].
  destruct Hin as [->|Hin]; cbn [fold_right].
  - rewrite Hfs, Hln, String.eqb_refl, Hiw. apply N.le_max_l.
  - specialize (IH Hin Hfs Hiw Hln).
    destruct (field_size sch d g) as [[w'| |]|]; try exact IH.
    destruct (local_name (f_desc g)) as [k'|]; try exact IH.
    destruct (String.eqb k k'); try exact IH.
    destruct (integer_width w'); try exact IH. exact (N.le_trans _ _ _ IH (N.le_max_r _ _)).
Qed.

Lemma bound_ok_cb_of fl sch d f :
  In f (decl_fields d) -> bound_ok sch d (cb_of fl sch d) f = true.
Proof. intros Hin. apply bound_ok_spec. intros w vtw k. apply cb_of_ge, Hin. Qed.

Theorem simple_file_arrays oc fl sch : simple_file fl sch -> arrays_file oc fl sch.
Proof.
  intros H t d Hl. specialize (H t d Hl). unfold arr_decl.
  rewrite forallb_forall in H. apply forallb_forall. intros f Hin. specialize (H f Hin).
  unfold simple_field in H. unfold arr_field. destruct (f_cond f); [reflexivity|].
  destruct (is_bitfield fl f); [apply bound_ok_cb_of; exact Hin|].
  destruct (f_desc f); try reflexivity; try exact H. discriminate H.
Qed.

Print Assumptions add_array_field_nrp.
Print Assumptions dec_fields_arrays_nrp.
Print Assumptions rust_decode_arrays_nrp.
Print Assumptions arrays_fileb_sound.
Print Assumptions simple_file_arrays.

(** Non-vacuity: scalar arrays with a static count, a [_size_] field, a [_count_]
    field, a padded one, a struct array and an enum array satisfy the predicate, in
    both overflow modes (decided by computation) *)
Definition ex_file : file :=
  let e := DEnum "E" [TagValue "A" 1; TagValue "B" 2] 8 in
  let s := DStruct "S" [] [mkField (Scalar "x" 16) None] None in
  let p := DPacket "P" []
             [mkField (Array "a" (Some 16) None None (Some 3)) None;
              mkField (Size "b" 8) None; mkField (Array "b" (Some 8) None None None) None;
              mkField (Count "c" 8) None; mkField (Array "c" (Some 32) None None None) None;
              mkField (Array "s" None (Some "S") None (Some 2)) None;
              mkField (Size "p" 8) None; mkField (Array "p" (Some 16) None None None) None;
              mkField (Padding 8) None;
              mkField (Array "t" None (Some "E") None None) None] None in
  mkFile LittleEndian [e; s; p].

Example arrays_hypothesis_is_satisfiable :
  match mk_schema ex_file with
  | Some sch => arrays_file true ex_file sch /\ arrays_file false ex_file sch
  | None => False
  end.
Proof.
  set (m := mk_schema ex_file). vm_compute in m. subst m. cbv iota.
  split; apply arrays_fileb_sound; vm_compute; reflexivity.
Qed.

Example ex_file_decodes :
  match mk_schema ex_file with
  | Some sch =>
      rust_decode 10 true ex_file sch "P"
        [x01;x00;x02;x00;x03;x00; x02;x0a;x0b; x01;x01;x02;x03;x04; x05;x00;x06;x00;
         x02;x07;x00; x00;x00;x00;x00;x00; x01;x02]
      = Ok (VObj [("a", VList [VNum 1; VNum 2; VNum 3]); ("b", VList [VNum 10; VNum 11]);
                  ("c", VList [VNum 67305985]);
                  ("s", VList [VObj [("x", VNum 5)]; VObj [("x", VNum 6)]]);
                  ("p", VList [VNum 7]); ("t", VList [VNum 2])], [])
  | None => False
  end.
Proof. vm_compute. reflexivity. Qed.

(** a 64-bit [_count_] of 64-bit elements: with overflow checks the product panics; WITHOUT
    (release profile) it wraps to 0, [check_size] passes, and the first unguarded element
    read runs off the buffer *)
Definition wit_count : file :=
  mkFile LittleEndian
    [DPacket "P" [] [mkField (Count "a" 64) None;
                     mkField (Array "a" (Some 64) None None None) None] None].

Example count_times_width_refuted :
  match mk_schema wit_count with
  | Some sch =>
      arrays_fileb true wit_count sch = false /\ arrays_fileb false wit_count sch = false /\
      rust_decode 10 true wit_count sch "P" [x00;x00;x00;x00;x00;x00;x00;x20]
      = Panic ArithOverflow /\
      rust_decode 10 false wit_count sch "P" [x00;x00;x00;x00;x00;x00;x00;x20]
      = Panic BufUnderflow
  | None => False
  end.
Proof. vm_compute. repeat split; reflexivity. Qed.

(** a 32-bit count of the same elements is inside the proved class *)
Example count32_accepted :
  let fl := mkFile LittleEndian
              [DPacket "P" [] [mkField (Count "a" 32) None;
                               mkField (Array "a" (Some 64) None None None) None] None] in
  match mk_schema fl with
  | Some sch => arrays_fileb true fl sch = true /\ arrays_fileb false fl sch = true
  | None => False
  end.
Proof. vm_compute. split; reflexivity. Qed.

(** element width 0 (an empty struct) with an unknown shape: [% 0] *)
Example zero_width_refuted :
  let fl := mkFile LittleEndian
              [DStruct "Z" [] [] None;
               DPacket "P" [] [mkField (Array "x" None (Some "Z") None None) None] None] in
  match mk_schema fl with
  | Some sch => arrays_fileb false fl sch = false /\
                rust_decode 10 false fl sch "P" [] = Panic DivZero
  | None => False
  end.
Proof. vm_compute. split; reflexivity. Qed.

(** an [_elementsize_] field whose value is 0 *)
Example element_size_zero_refuted :
  let fl := mkFile LittleEndian
              [DStruct "T" [] [mkField (Size "v" 8) None;
                               mkField (Array "v" (Some 8) None None None) None] None;
               DPacket "P" [] [mkField (ElementSize "x" 8) None;
                               mkField (Array "x" None (Some "T") None None) None] None] in
  match mk_schema fl with
  | Some sch => arrays_fileb false fl sch = false /\
                rust_decode 10 false fl sch "P" [x00] = Panic DivZero
  | None => False
  end.
Proof. vm_compute. split; reflexivity. Qed.
