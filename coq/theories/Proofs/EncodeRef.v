(** C03: the emitted encoder against the reference, one field at a time.  From any state
    of the bit-field group in which the encoder's pending list and the reference's running
    sum agree ([packed]), the emitted code returns the bytes of the reference's segments,
    or pdlc refused ([fields_ok]).  Every field of [ref_class] preserves this: a bit-field
    because the entry the encoder computes for it is the reference's value in a Rust type
    that is wide enough ([entry_agrees], [group_step]). *)
From Coq Require Import NArith List String Bool.
From Coq Require Import Strings.Byte.
From PDL Require Import Base.Outcome Lang.Ast Lang.Sexp Analyzer.Schema Rust.Enum Sem.RefEncode
     Rust.Encode Proofs.GenPre Proofs.Pack Proofs.EncodeEqns Proofs.BitfieldEncode.
Import ListNotations.
Open Scope N_scope.

Section EncodeRef.
  Variable fl : file.
  Variable sch : schema.
  Variable rec : string -> value -> option (list seg).
  Variable rec_enc : string -> value -> eres (list byte).
  Variable rec_len : string -> value -> option N.
  Variable d : decl.
  Variable all_fields : list field.
  Variable cs : list constr.
  Variable obj : list (string * value).
  Variable payload : list seg.
  Variable payload_act : eres (list byte).
  Variable payload_size : N.

  Hypothesis enum_sizes : schema_knows_enums fl sch.
  (** true of [iter_fields] *)
  Hypothesis own_first : exists more, all_fields = (decl_fields d ++ more)%list.

  Local Notation R := (render (f_endian fl)).
  Local Notation RF := (ref_enc_fields fl rec d all_fields cs obj payload).
  Local Notation EF := (enc_fields fl sch rec_enc rec_len d all_fields cs obj payload_act payload_size).
  Local Notation entry := (bf_entry fl rec_len d all_fields cs obj payload_size).

  Definition fields_ok (rest : list field) : Prop :=
    forall p acc bits ss,
      packed p acc bits -> RF rest acc bits = Some ss -> good (EF rest p bits) (R ss).

  Definition elt_width (w : option N) (t : option string) : option N :=
    match w with
    | Some ew => Some ew
    | None =>
        match t with
        | Some tid => match lookup_decl fl tid with Some (DEnum _ _ ew) => Some ew | _ => None end
        | None => None
        end
    end.

  Definition field_elt_width (f : field) : option N :=
    match f_desc f with Array _ w t _ _ => elt_width w t | _ => None end.

  (** The fields covered: every bit-field but [_elementsize_], padding, arrays of scalars
      or enum values, optional scalars and enums.  Side conditions, each witnessed in
      [ArrayEncode]:
      - a [_size_] field is narrower than 64 bits (the generator computes
        [mask_bits(width)] = [(1 << width) - 1]);
      - the array named by a [_size_] field has no size modifier: the emitted encoder
        ignores it (the "TODO: size modifier" of encoder.rs) while the reference adds it (F63);
      - an array field and the FIRST array of the declaration with its name (the one the
        reference looks up) have the same element width -- true when names are unique. *)
  Definition ref_class (f : field) : bool :=
    match f_cond f, f_desc f with
    | Some _, (Scalar _ _ | Typedef _ _) => is_bitfield fl f
    | Some _, _ => false
    | None, Padding _ => true
    | None, Array id w t _ _ =>
        match elt_width w t, array_field d id with
        | Some ew, Some af => match field_elt_width af with Some ew' => ew' =? ew | None => false end
        | _, _ => false
        end
    | None, Size fid w =>
        (w <? 64) && negb (String.eqb fid "_payload_" || String.eqb fid "_body_")
        && (array_modifier d fid =? 0) &&
        match array_field d fid with
        | Some af => match field_elt_width af with Some _ => true | None => false end
        | None => false
        end
    | None, ElementSize _ _ => false
    | None, _ => is_bitfield fl f
    end.

  Lemma here_step rest href here p acc ss :
    fields_ok rest -> packed p acc 0 ->
    (forall a, href = Some a -> good here (R a)) ->
    sapp href (RF rest 0 0) = Some ss ->
    good (oapp here (EF rest p 0)) (R ss).
  Proof.
    intros IH Hp Hh Hs. destruct href as [a|]; [|discriminate]. cbn [sapp] in Hs.
    destruct (RF rest 0 0) as [b|] eqn:Eb; [|discriminate]. inversion Hs; subst ss.
    rewrite render_app. apply good_oapp; [now apply Hh|].
    pose proof (packed_0 _ _ Hp). subst acc. now apply (IH p 0 0 b).
  Qed.

  (** What the encoder's entry for a bit-field has to be when the reference gives it
      the value [v] on [w] bits: [v] in a Rust type of at least [w] bits, at the current
      shift; nothing for reserved bits; or pdlc refused. *)
  Definition entry_for (v w shift : N) (r : eres (option (N * N * N))) : Prop :=
    match r with
    | Ok (Some e) => exists tw, e = (v, tw, shift) /\ w <= tw
    | Ok None => v = 0
    | Panic GenAssert => True
    | _ => False
    end.

  Lemma group_step rest r v w p acc bits ss :
    fields_ok rest -> packed p acc bits -> v < 2 ^ w -> entry_for v w bits r ->
    (if (bits + w) mod 8 =? 0
     then sapp (Some [int_seg (nbytes (bits + w)) (acc + v * 2 ^ bits)]) (RF rest 0 0)
     else RF rest (acc + v * 2 ^ bits) (bits + w)) = Some ss ->
    good (let* e := r in
          let p' := match e with Some e => (p ++ [e])%list | None => p end in
          if (bits + w) mod 8 =? 0
          then oapp (pack_bit_fields fl p' (bits + w)) (EF rest [] 0)
          else EF rest p' (bits + w))
         (R ss).
  Proof.
    intros IH Hp Hv He. destruct r as [e| |k|]; try contradiction; [|now destruct k]. cbn [bind].
    set (p' := match e with Some e0 => (p ++ [e0])%list | None => p end).
    assert (Hp' : packed p' (acc + v * 2 ^ bits) (bits + w)).
    { destruct e as [e|]; cbn [entry_for] in He.
      - destruct He as (tw & -> & Htw). now apply packed_push.
      - subst v. rewrite N.mul_0_l, N.add_0_r. now apply packed_skip. }
    destruct ((bits + w) mod 8 =? 0); [|now apply IH].
    (* the group closes: its bytes, then the rest from an empty group *)
    apply (here_step rest _ _ [] 0 ss IH (packed_nil 0)). intros a [= <-].
    destruct (integer_width (bits + w)) as [cw|] eqn:Ecw.
    - rewrite (pack_bit_fields_packed fl p' _ _ cw Hp' Ecw). symmetry. apply render_int.
    - unfold pack_bit_fields. now rewrite Ecw.
  Qed.

  Lemma entry_for_ok v w tw shift : w <= tw -> entry_for v w shift (Ok (Some (v, tw, shift))).
  Proof. intros H. exists tw. now split. Qed.

  Lemma entry_for_width v w shift :
    entry_for v w shift (match integer_width w with
                         | Some tw => Ok (Some (v, tw, shift))
                         | None => Panic GenAssert
                         end).
  Proof.
    destruct (integer_width w) as [tw|] eqn:E; [|exact I].
    apply entry_for_ok, (integer_width_bounds _ _ E).
  Qed.

  (** the range check that the generator emits passes when the reference has an encoding *)
  Lemma mask_ge v w : v < 2 ^ w -> (2 ^ w - 1 <? v) = false.
  Proof. intros H. apply N.ltb_ge. rewrite N.sub_1_r. now apply N.lt_le_pred. Qed.

  Lemma mask_checked {A} w v err (x : eres A) :
    w < 64 -> v < 2 ^ w ->
    match mask_bits w with
    | Some m => if m <? v then Err err else x
    | None => Panic ArithOverflow
    end = x.
  Proof. intros Hw Hv. unfold mask_bits. now rewrite (proj2 (N.ltb_lt w 64) Hw), mask_ge. Qed.

  (** scalars and counts: checked where the Rust type is wider than the field; [c] is
      the cast to the Rust type, if any *)
  Lemma entry_for_checked v w shift err (c : N -> N) :
    v < 2 ^ w -> (forall tw, w <= tw -> c tw = v) ->
    entry_for v w shift
      (match integer_width w with
       | Some tw =>
           if w <? tw then
             match mask_bits w with
             | Some m => if m <? v then Err err else Ok (Some (c tw, tw, shift))
             | None => Panic ArithOverflow
             end
           else Ok (Some (c tw, tw, shift))
       | None => Panic GenAssert
       end).
  Proof.
    intros Hv Hc. destruct (integer_width w) as [tw|] eqn:E; [|exact I].
    destruct (integer_width_bounds _ _ E) as [Hle H64].
    assert (Hx : entry_for v w shift (Ok (Some (c tw, tw, shift))))
      by (rewrite (Hc tw Hle); now apply entry_for_ok).
    destruct (w <? tw) eqn:Ew; [|exact Hx]. apply N.ltb_lt in Ew.
    rewrite mask_checked; [exact Hx | eapply N.lt_le_trans; eassumption | exact Hv].
  Qed.

  (** the accessor of the emitted code returns the value the reference uses, be it
      fixed by a constraint or stored; [K] is what the reference checks of a stored value *)
  Lemma get_num_ref id w (K : N -> option (N * N)) v w' :
    (forall n r, K n = Some r -> r = (n, w)) ->
    match find_constraint cs id with
    | Some c => option_map (fun v => (v, w)) (constraint_N fl all_fields c)
    | None => match assoc id obj with Some (VNum n) => K n | _ => None end
    end = Some (v, w') ->
    get_num fl all_fields cs obj id = Some v /\ w' = w.
  Proof.
    intros HK. unfold get_num. destruct (find_constraint cs id) as [c|].
    - destruct (constraint_N fl all_fields c); [|discriminate]. intros [= <- <-]. auto.
    - destruct (assoc id obj) as [[n| | |]|]; try discriminate.
      intros H. apply HK in H. injection H as <- <-. auto.
  Qed.

  (** [flag_consistent]'s local step, named: [z] (resp. [o]) records that some use of the
      flag asks for the value 0 (resp. 1) *)
  Definition fstep (acc : option (bool * bool)) (u : string * N) : option (bool * bool) :=
    match acc, is_present obj (fst u) with
    | Some (z, o), Some p =>
        if snd u =? 1 then Some (z || negb p, o || p) else Some (z || p, o || negb p)
    | _, _ => None
    end.

  Lemma flag_value_head oid setv more r :
    flag_value obj ((oid, setv) :: more) = Some r ->
    exists pr r' v, r = Some v /\ is_present obj oid = Some pr /\ flag_value obj more = Some r' /\
                    (1 <? setv) = false /\ v = (if pr then setv else 1 - setv) /\
                    (r' = None \/ r' = Some v).
  Proof.
    cbn [flag_value]. intros H.
    destruct (is_present obj oid) as [pr|]; [|discriminate].
    destruct (flag_value obj more) as [r'|]; [|discriminate].
    destruct (1 <? setv) eqn:Es; [discriminate|]. cbv zeta in H.
    exists pr, r', (if pr then setv else 1 - setv). destruct r' as [v'|].
    - destruct (_ =? v') eqn:Ev; [|discriminate]. apply N.eqb_eq in Ev. injection H as <-.
      repeat (split; [reflexivity|]). right. now rewrite Ev.
    - injection H as <-. repeat (split; [reflexivity|]). now left.
  Qed.

  Lemma fold_flag uses : forall r z o,
    flag_value obj uses = Some r ->
    fold_left fstep uses (Some (z, o))
    = Some (match r with None => (z, o) | Some v => (z || (v =? 0), o || (v =? 1)) end).
  Proof.
    induction uses as [|[oid setv] rest IH]; intros r z o H.
    - cbn [flag_value] in H. inversion H; subst. reflexivity.
    - destruct (flag_value_head _ _ _ _ H) as (pr & r' & v & -> & Ep & Er & Es & Hv & Hr').
      cbn [fold_left]. unfold fstep at 2. cbn [fst snd]. rewrite Ep.
      assert (Hs : setv = 0 \/ setv = 1) by now apply N.le_1_r, N.ltb_ge.
      assert (Hstep : (if setv =? 1 then Some (z || negb pr, o || pr) else Some (z || pr, o || negb pr))
                      = Some (z || (v =? 0), o || (v =? 1))).
      { destruct Hs as [-> | ->]; destruct pr; subst v; reflexivity. }
      rewrite Hstep. rewrite (IH r' _ _ Er).
      destruct Hr' as [-> | ->]; [reflexivity|].
      now rewrite <- !orb_assoc, !orb_diag.
  Qed.

  Lemma flag_consistent_of_value uses v :
    flag_value obj uses = Some (Some v) -> flag_consistent obj uses = Some true.
  Proof.
    intros H. unfold flag_consistent. change (fold_left _ uses) with (fold_left fstep uses).
    rewrite (fold_flag uses _ false false H).
    cbn [orb]. destruct (v =? 0) eqn:E0; [|reflexivity].
    apply N.eqb_eq in E0. subst v. reflexivity.
  Qed.

  Lemma flag_entry id uses c v width shift :
    flag_value obj uses = Some (Some v) ->
    entry (mkField (Flag id uses) c) width shift = Ok (Some (v, 8, shift)).
  Proof.
    intros Hv. unfold bf_entry. cbn [f_desc].
    pose proof (flag_consistent_of_value _ _ Hv) as Hcons.
    destruct uses as [|[oid setv] more]; [discriminate|].
    destruct (flag_value_head _ _ _ _ Hv) as (pr & _ & v' & [= <-] & Ep & _ & Es & -> & _).
    rewrite Es, Hcons, Ep. now destruct more.
  Qed.

  Lemma ref_elem_num w t ew v segs :
    elt_width w t = Some ew -> ref_enc_elem fl rec w t v = Some segs ->
    exists n, v = VNum n /\ n < 2 ^ ew /\ segs = [int_seg (nbytes ew) n].
  Proof.
    unfold elt_width, ref_enc_elem. intros Hw Hr. destruct w as [w0|].
    - inversion Hw; subst w0. destruct v as [n| |l|o]; try discriminate.
      destruct (n <? 2 ^ ew) eqn:En; [|discriminate]. apply N.ltb_lt in En.
      destruct (ew mod 8 =? 0); [|discriminate]. inversion Hr. eauto.
    - destruct t as [tid|]; [|discriminate].
      destruct (lookup_decl fl tid) as [[| |eid tags w0| | | |]|]; try discriminate.
      inversion Hw; subst w0. destruct v as [n| |l|o]; try discriminate.
      unfold spec_enum_of_N in Hr.
      destruct (2 ^ ew <=? n) eqn:En; [discriminate|]. apply N.leb_gt in En.
      match type of Hr with match ?x with _ => _ end = _ => destruct x; [|discriminate] end.
      destruct (ew mod 8 =? 0); [|discriminate]. inversion Hr. eauto.
  Qed.

  Lemma put_chunk_render ew n : n < 2 ^ ew -> put_chunk fl ew n = R [int_seg (nbytes ew) n].
  Proof. intros Hn. now rewrite render_int, put_chunk_small. Qed.

  Lemma ref_elem_chunk w t ew v a :
    elt_width w t = Some ew -> ref_enc_elem fl rec w t v = Some a ->
    exists n, v = VNum n /\ n < 2 ^ ew /\ R a = put_chunk fl ew n.
  Proof.
    intros Hw Hr. destruct (ref_elem_num w t ew v a Hw Hr) as (n & -> & Hn & ->).
    exists n. now rewrite put_chunk_render.
  Qed.

  Lemma put_elem_width f ew n :
    field_elt_width f = Some ew -> put_elem fl rec_enc f (VNum n) = Ok (put_chunk fl ew n).
  Proof.
    unfold field_elt_width, elt_width, put_elem.
    destruct (f_desc f) as [ | | | | | | | | | |ai [w0|] [tid|] am asz| | | | ]; try discriminate.
    1,2: now intros [= <-].
    destruct (lookup_decl fl tid) as [[| |eid tags w0| | | |]|]; try discriminate. now intros [= <-].
  Qed.

  (** the size of an array in octets, as the size field ([array_octets]) and as the
      padding check ([array_octets_schema]) compute it *)
  Lemma array_octets_width f ew vs :
    field_elt_width f = Some ew ->
    array_octets fl rec_len f vs = Some (len vs * (ew / 8)) /\
    array_octets_schema sch rec_len f vs = Some (len vs * (ew / 8)).
  Proof.
    unfold field_elt_width, elt_width, array_octets, array_octets_schema, type_static_bits.
    destruct (f_desc f) as [ | | | | | | | | | |ai [w0|] [tid|] am asz| | | | ]; try discriminate.
    1,2: now intros [= <-].
    destruct (lookup_decl fl tid) as [[| |eid tags w0| | | |]|] eqn:El; try discriminate.
    intros [= <-]. now rewrite (schema_enum_total _ _ _ _ _ _ enum_sizes El).
  Qed.

  Definition num_segs (ew : N) (ns : list N) : list (list seg) :=
    map (fun n => [int_seg (nbytes ew) n]) ns.

  Lemma ref_elems_nums w t ew :
    elt_width w t = Some ew ->
    forall vs ebs, ref_enc_elems fl rec w t vs = Some ebs ->
                   exists ns, vs = map VNum ns /\ Forall (fun n => n < 2 ^ ew) ns /\ ebs = num_segs ew ns.
  Proof.
    intros Hw. induction vs as [|v vs IH]; intros ebs Hr; cbn [ref_enc_elems] in Hr.
    - injection Hr as <-. now exists [].
    - destruct (ref_enc_elem fl rec w t v) as [segs|] eqn:Ee; [|discriminate].
      destruct (ref_enc_elems fl rec w t vs) as [r|]; [|discriminate]. injection Hr as <-.
      destruct (ref_elem_num w t ew v segs Hw Ee) as (n & -> & Hn & ->).
      destruct (IH r eq_refl) as (ns & -> & Hns & ->).
      exists (n :: ns). repeat split. now constructor.
  Qed.

  Lemma num_segs_len ew ns : seg_len (List.concat (num_segs ew ns)) = len ns * (ew / 8).
  Proof.
    induction ns as [|n ns IH]; [reflexivity|]. cbn [num_segs map List.concat]. fold (num_segs ew ns).
    rewrite seg_len_app, seg_len_int, nbytes_N, IH, len_cons. now rewrite N.mul_add_distr_r, N.mul_1_l.
  Qed.

  Lemma put_elems_nums f ew ns :
    field_elt_width f = Some ew -> Forall (fun n => n < 2 ^ ew) ns ->
    put_elems fl rec_enc f (map VNum ns) = Ok (R (List.concat (num_segs ew ns))).
  Proof.
    intros Hf. induction 1 as [|n ns Hn _ IH]; [reflexivity|].
    cbn [map put_elems num_segs List.concat]. fold (num_segs ew ns).
    rewrite (put_elem_width f ew n Hf), IH. cbn [bind]. now rewrite render_app, put_chunk_render.
  Qed.

  Lemma array_field_named id af :
    array_field d id = Some af -> exists w t m s, f_desc af = Array id w t m s.
  Proof.
    intros H. apply find_some in H. destruct H as [_ H].
    destruct (f_desc af); try discriminate. apply String.eqb_eq in H. subst. repeat eexists.
  Qed.

  (** the value of the array [id], when its field has an element width: numbers that fit *)
  Lemma ref_array_value id af ew ebs :
    array_field d id = Some af -> field_elt_width af = Some ew ->
    ref_array_elems fl rec d obj id = Some ebs ->
    exists ns, assoc id obj = Some (VList (map VNum ns)) /\ Forall (fun n => n < 2 ^ ew) ns /\
               ebs = num_segs ew ns.
  Proof.
    unfold ref_array_elems, field_elt_width. intros -> Hw.
    destruct (assoc id obj) as [[| |vs|]|]; try discriminate.
    destruct (f_desc af) as [ | | | | | | | | | |ai w t m s| | | | ]; try discriminate.
    destruct (ref_enc_elems fl rec w t vs) as [ebs0|] eqn:Ee; [|discriminate]. intros H.
    assert (ebs0 = ebs) as -> by (destruct s; [destruct (_ =? _)|]; now inversion H).
    destruct (ref_elems_nums w t ew Hw vs ebs Ee) as (ns & -> & Hns & ->). now exists ns.
  Qed.

  Definition sized_desc (x : fdesc) : Prop :=
    match x with Payload _ | Body | Array _ _ _ _ _ => True | _ => False end.

  Lemma value_field_find fs more fid af :
    String.eqb fid "_payload_" || String.eqb fid "_body_" = false ->
    find (fun f => match f_desc f with Array i _ _ _ _ => String.eqb i fid | _ => false end) fs = Some af ->
    exists vf, value_field (fs ++ more)%list fid = Some vf /\ (vf = af \/ ~ sized_desc (f_desc vf)).
  Proof.
    intros Hfid. apply orb_false_elim in Hfid. destruct Hfid as [Hp Hb].
    unfold value_field.
    match goal with |- find ?q _ = _ -> exists vf, find ?p _ = _ /\ _ => set (Q := q); set (P := p) end.
    (* an array named [fid] is a value field; any other value field named [fid] is not sized *)
    assert (HP : forall g, if Q g then P g = true else P g = true -> ~ sized_desc (f_desc g)).
    { intros [gd gc]. unfold P, Q, field_id. cbn [f_desc].
      destruct gd; try exact (fun _ H => H); try (rewrite ?Hp, ?Hb; discriminate).
      now destruct (String.eqb id fid). }
    induction fs as [|g fs IH]; [discriminate|]. cbn [app find]. specialize (HP g).
    destruct (Q g).
    - intros H; inversion H; subst g. rewrite HP. eauto.
    - destruct (P g); [eauto | exact IH].
  Qed.

  Lemma size_entry fid w c af ew ebs shift :
    w < 64 -> String.eqb fid "_payload_" || String.eqb fid "_body_" = false ->
    array_field d fid = Some af -> field_elt_width af = Some ew ->
    ref_array_elems fl rec d obj fid = Some ebs -> seg_len (List.concat ebs) < 2 ^ w ->
    entry_for (seg_len (List.concat ebs)) w shift (entry (mkField (Size fid w) c) w shift).
  Proof.
    (* The encoder resolves [fid] with [value_field] over ALL fields, the reference with
       [array_field] over the declaration's own: by [own_first] the first hit is that array,
       or an earlier field that is no array, on which the generator asserts. *)
    intros Hw Hnp Eaf Ewa Era Hv. unfold bf_entry. cbn [f_desc].
    destruct (ref_array_value _ _ _ _ Eaf Ewa Era) as (ns & Ea & _ & ->). rewrite num_segs_len in *.
    unfold mask_bits. rewrite (proj2 (N.ltb_lt w 64) Hw).
    destruct (integer_width w) as [tw|] eqn:Etw; [|exact I].
    destruct own_first as [more Hall].
    destruct (value_field_find (decl_fields d) more fid af Hnp Eaf) as (vf & Hvf & [-> | Hns]);
      rewrite Hall, Hvf.
    - destruct (array_field_named _ _ Eaf) as (aw & at' & am & asz & ->).
      unfold obj_list. rewrite Ea, (proj1 (array_octets_width af ew _ Ewa)), len_map, (mask_ge _ _ Hv).
      pose proof (proj1 (integer_width_bounds _ _ Etw)) as Hle.
      rewrite (mod_pow2_small _ _ _ Hv Hle). now apply entry_for_ok.
    - destruct (f_desc vf); try (exfalso; apply Hns; exact I); exact I.
  Qed.

  Lemma entry_agrees f v w shift :
    ref_class f = true -> f_cond f = None ->
    ref_bitfield fl rec d all_fields cs obj payload f = Some (v, w) -> v < 2 ^ w ->
    entry_for v w shift (entry f w shift).
  Proof.
    destruct f as [fd fc]. unfold ref_class, ref_bitfield, bf_entry. cbn [f_cond f_desc].
    intros Hc -> Hr Hv.
    destruct fd as [c|n|sf sw|cf cw|ef ew| |pm|fw fv|fe ft|rw|ai aw aty am asz|si sw|gi gu|ti tt|gg gc];
      try discriminate.
    - (* Size *)
      apply andb_prop in Hc as [Hc Haf]. apply andb_prop in Hc as [Hc Hmod].
      apply andb_prop in Hc as [Hw64 Hnp]. apply negb_true_iff in Hnp. rewrite Hnp in Hr.
      apply N.eqb_eq in Hmod. rewrite Hmod in Hr. apply N.ltb_lt in Hw64.
      destruct (ref_array_elems fl rec d obj sf) as [ebs|] eqn:Era; [|discriminate].
      rewrite N.add_0_r in Hr. injection Hr as <- <-.
      destruct (array_field d sf) as [af|] eqn:Eaf; [|discriminate].
      destruct (field_elt_width af) as [ew|] eqn:Ewa; [|discriminate].
      now apply (size_entry sf sw None af ew).
    - (* Count *)
      unfold obj_list. destruct (assoc cf obj) as [[| |vs|]|]; try discriminate. injection Hr as <- <-.
      apply (entry_for_checked _ _ _ CountOverflow (fun tw => len vs mod 2 ^ tw) Hv).
      intros tw. now apply mod_pow2_small.
    - (* FixedScalar *)
      injection Hr as <- <-. apply entry_for_width.
    - (* FixedEnum *)
      destruct (enum_tags fl fe) as [[tags ew]|]; [|discriminate].
      destruct (enum_tag_value tags ft) as [tv|]; [|discriminate]. injection Hr as <- <-.
      apply entry_for_width.
    - (* Reserved *)
      injection Hr as <- <-. reflexivity.
    - (* Scalar *)
      destruct (get_num_ref si sw (fun n => Some (n, sw)) v w) as [-> ->];
        [now intros n r [= <-] | exact Hr |].
      now apply (entry_for_checked _ _ _ InvalidScalarValue (fun _ => v)).
    - (* Flag *)
      destruct (flag_value obj gu) as [[fv|]|] eqn:Efv; try discriminate. injection Hr as <- <-.
      change (entry_for fv 1 shift (entry (mkField (Flag gi gu) None) 1 shift)).
      rewrite (flag_entry gi gu None fv 1 shift Efv). now apply entry_for_ok.
    - (* Typedef *)
      destruct (enum_tags fl tt) as [[tags ew]|]; [|discriminate].
      destruct (get_num_ref ti ew (fun n => match spec_enum_of_N tags ew n with
                                            | Some _ => Some (n, ew) | None => None end) v w)
        as [-> ->]; [| exact Hr |].
      { intros n r. destruct spec_enum_of_N; [now intros [= <-] | discriminate]. }
      apply entry_for_width.
  Qed.

  Lemma plain_agrees f rest a :
    ref_class f = true -> f_cond f = None -> is_bitfield fl f = false ->
    ref_plain_here fl rec d obj payload f rest = Some a ->
    good (plain_here fl sch rec_enc rec_len obj payload_act f rest 0) (R a).
  Proof.
    destruct f as [fd fc]. unfold ref_class, ref_plain_here, plain_here. cbn [f_cond f_desc].
    intros Hc -> Eb. rewrite ?Eb in Hc.
    destruct fd as [ | | | | | | | | | |ai aw aty am asz| | | | ]; try discriminate.
    - (* Padding *) now intros [= <-].
    - (* Array *)
      set (f := mkField (Array ai aw aty am asz) None).
      destruct (elt_width aw aty) as [ew|] eqn:Ewf; [|discriminate].
      destruct (array_field d ai) as [af|] eqn:Eaf; [|discriminate].
      destruct (field_elt_width af) as [ew0|] eqn:Ewa; [|discriminate].
      apply N.eqb_eq in Hc. subst ew0. change (field_elt_width f = Some ew) in Ewf.
      destruct (ref_array_elems fl rec d obj ai) as [ebs|] eqn:Era; [|discriminate].
      destruct (ref_array_value _ _ _ _ Eaf Ewa Era) as (ns & Ea & Hns & ->).
      cbn [N.eqb negb]. unfold obj_list.
      rewrite Ea, (put_elems_nums f ew ns Ewf Hns), next_padding_spec.
      destruct (match decl_element_size d ai with Some _ => all_same_length _ | None => true end);
        [|discriminate].
      destruct (next_is_padding rest) as [pn|]; cbn [option_map]; [|now intros [= <-]].
      rewrite (proj2 (array_octets_width f ew _ Ewf)), len_map, num_segs_len, (N.mul_comm 8 pn), N.div_mul
        by discriminate.
      destruct (_ <=? pn) eqn:Ele; [|discriminate]. apply N.leb_le, N.ltb_ge in Ele. rewrite Ele.
      intros [= <-]. cbn [bind good]. now rewrite render_app, render_raw.
  Qed.

  (** an optional scalar or enum is encoded like one element of an array *)
  Lemma optional_agrees f c a :
    ref_class f = true -> f_cond f = Some c ->
    ref_opt_here fl rec obj f = Some a -> good (opt_here fl rec_enc obj f) (R a).
  Proof.
    destruct f as [fd fc]. unfold ref_class, ref_opt_here, opt_here, is_bitfield. cbn [f_cond f_desc].
    intros Hc ->. destruct (assoc _ obj) as [v|]; [|discriminate].
    destruct fd as [ | | | | | | | | | | |sid w| |tyid tid| ]; try discriminate.
    - (* Scalar *)
      destruct v as [n| |l|o]; [| now intros [= <-] | |];
        intros H; destruct (ref_elem_chunk (Some w) None w _ a eq_refl H) as (n' & [= <-] & Hn & ->).
      destruct (integer_width w) as [bw|] eqn:Ebw; [|exact I].
      destruct (bw <=? w) eqn:Ew; [reflexivity|]. apply N.leb_gt in Ew.
      rewrite mask_checked; [reflexivity | | exact Hn].
      eapply N.lt_le_trans; [exact Ew | apply (integer_width_bounds _ _ Ebw)].
    - (* Typedef *)
      destruct (lookup_decl fl tid) as [[| |eid tags w| | | |]|] eqn:El; try discriminate.
      assert (Hw : elt_width None (Some tid) = Some w) by (unfold elt_width; now rewrite El).
      destruct v as [n| |l|o]; [| now intros [= <-] | |];
        intros H; destruct (ref_elem_chunk None (Some tid) w _ a Hw H) as (n' & [= <-] & Hn & ->).
      now destruct (integer_width w).
  Qed.

  Theorem enc_fields_ref fs : forallb ref_class fs = true -> fields_ok fs.
  Proof.
    induction fs as [|f rest IH]; intros Hc p acc bits ss Hp.
    - cbn. destruct (bits =? 0); [|discriminate]. intros H; inversion H. reflexivity.
    - cbn [forallb] in Hc. apply andb_prop in Hc as [Hf Hrest]. specialize (IH Hrest).
      rewrite enc_fields_cons, ref_enc_fields_cons.
      destruct (f_cond f) as [c|] eqn:Ec; [|destruct (is_bitfield fl f) eqn:Eb].
      + destruct (bits =? 0) eqn:E0; [|discriminate]. apply N.eqb_eq in E0. subst bits.
        apply (here_step rest _ _ p acc ss IH Hp). intros a. now apply (optional_agrees f c).
      + destruct (ref_bitfield fl rec d all_fields cs obj payload f) as [[v w]|] eqn:Er; [|discriminate].
        destruct (v <? 2 ^ w) eqn:Ev; [|discriminate]. apply N.ltb_lt in Ev.
        rewrite (ref_bitfield_size fl sch rec d all_fields cs obj payload f v w enum_sizes Ec Er).
        pose proof (entry_agrees f v w bits Hf Ec Er Ev). now apply group_step.
      + destruct (bits =? 0) eqn:E0; [|discriminate]. apply N.eqb_eq in E0. subst bits.
        apply (here_step rest _ _ p acc ss IH Hp). intros a. now apply plain_agrees.
  Qed.
End EncodeRef.

Theorem rust_encode_ref fuel fl sch id d v bs :
  schema_knows_enums fl sch ->
  lookup_decl fl id = Some d ->
  root_decl d -> forallb (ref_class fl d) (decl_fields d) = true ->
  ref_encode (S fuel) fl id v = Some bs ->
  good (rust_encode (S fuel) fl sch id v) bs.
Proof.
  intros Hsch Hl Hr Hc Href.
  destruct (ref_encode_root fuel fl id d v bs Hl Hr Href) as (o & pl & ss & -> & Hp & Hss & ->).
  rewrite (rust_encode_root fuel fl sch id d o pl Hl Hr Hp).
  exact (enc_fields_ref fl sch _ _ _ d _ [] o _ _ _ Hsch (iter_fields_own fl d) _ Hc _ _ _ _
                        (packed_nil 0) Hss).
Qed.

(** for a class of fields included in [ref_class]; the fourth hypothesis is a conjunction so
    that [root_of_fragment] and its like unfold to it *)
Lemma rust_encode_class (cls : decl -> field -> bool) fuel fl sch id d v bs :
  (forall f, cls d f = true -> ref_class fl d f = true) ->
  schema_knows_enums fl sch ->
  lookup_decl fl id = Some d ->
  root_decl d /\ forallb (cls d) (decl_fields d) = true ->
  ref_encode (S fuel) fl id v = Some bs ->
  good (rust_encode (S fuel) fl sch id v) bs.
Proof.
  intros Hsub Hsch Hl [Hr Hc]. apply (rust_encode_ref fuel fl sch id d v bs Hsch Hl Hr).
  rewrite forallb_forall in *. auto.
Qed.

Lemma bf_field_ref_class fl d f : bf_field fl f = true -> ref_class fl d f = true.
Proof.
  intros H. pose proof (bf_is_bitfield fl f H) as Hb. unfold bf_field in H. unfold ref_class.
  destruct (f_cond f); [discriminate|]. destruct (f_desc f); try discriminate; exact Hb.
Qed.

Theorem rust_encode_fragment fuel fl sch id d v bs :
  schema_knows_enums fl sch ->
  lookup_decl fl id = Some d ->
  root_of_fragment fl d ->
  ref_encode (S fuel) fl id v = Some bs ->
  good (rust_encode (S fuel) fl sch id v) bs.
Proof. exact (rust_encode_class (fun _ => bf_field fl) fuel fl sch id d v bs (bf_field_ref_class fl d)). Qed.
