(** C02 / C04 beyond the bit-field fragment: count and size fields, the arrays of scalars
    they delimit, and arrays of scalars with a static count.
    Beside the pending items of [RoundTrip.dec_fields_reference] the induction tracks the
    locals of the emitted function ([x_count], [x_size], one per scalar): an abstract
    environment [env] lists, most recent first, the names bound so far, a count / size local
    tagged with the array it measures; [realizes] says that the run-time locals hold, under
    each tagged name visible in [env], what the reference derives from the value.
    [wf_fields] is the syntactic side condition: the local of a delimited array is bound
    before the array and not shadowed by a later local of the same name (the emitted Rust
    shadows silently: counter-example at the end of the file). *)
From Coq Require Import NArith List String Bool.
From Coq Require Import Strings.Byte.
From PDL Require Import Base.Outcome Lang.Ast Lang.Sexp Analyzer.Schema Sem.RefEncode Rust.Encode
     Rust.Decode Proofs.ListFacts Proofs.Pack Proofs.EncodeEqns Proofs.BitfieldEncode Proofs.EncodeRef
     Proofs.SchemaEnums Proofs.DecodeSteps Proofs.DecodeSafeArrays Proofs.RoundTrip Proofs.RoundTripReal
     Proofs.ArrayEncode.
Import ListNotations.
Open Scope N_scope.

(** (true, x) : the count of array x; (false, x) : its size in octets *)
Definition ltag := (bool * string)%type.

Definition binder (f : field) : list (string * option ltag) :=
  match f_desc f with
  | Scalar id _ | Typedef id _ => [(id, None)]
  | Count fid _ => [(count_ident fid, Some (true, fid))]
  | Size fid _ => [(size_ident fid, Some (false, fid))]
  | _ => []
  end.

Definition env_has (env : list (string * option ltag)) (k : string) (t : ltag) : bool :=
  match assoc k env with
  | Some (Some (b, s)) => Bool.eqb b (fst t) && String.eqb s (snd t)
  | _ => false
  end.

Lemma env_has_spec env k t : env_has env k t = true -> assoc k env = Some (Some t).
Proof.
  unfold env_has. destruct (assoc k env) as [[[b s]|]|]; try discriminate.
  destruct t as [b' s']. cbn [fst snd]. intros H. apply andb_prop in H. destruct H as [Hb Hs].
  apply Bool.eqb_prop in Hb. apply String.eqb_eq in Hs. subst. reflexivity.
Qed.

Lemma len_concat_bytes e k ns :
  len (List.concat (map (bytes_E e k) ns)) = len ns * N.of_nat k.
Proof.
  induction ns as [|n ns IH]; [reflexivity|].
  cbn [map List.concat]. rewrite len_app, IH, len_cons. unfold len at 1. rewrite bytes_E_length.
  now rewrite N.mul_add_distr_r, N.mul_1_l.
Qed.

Section Loop.
  Variable fl : file.
  Variable rec : string -> list byte -> dres (value * list byte).

  Lemma parse_element_scalar ew n tl :
    ew mod 8 = 0 -> n < 2 ^ ew ->
    parse_element fl rec (Some ew) None (bytes_E (f_endian fl) (nbytes ew) n ++ tl)%list = Ok (VNum n, tl).
  Proof. intros E8 Hn. unfold parse_element, Decode.E. now rewrite get_uint_bytes_E. Qed.

  (** [for _ in 0..n] over scalar elements, on the concatenation of [n] element encodings *)
  Lemma loop_count_scalars ew :
    ew mod 8 = 0 ->
    forall ns lf acc tl,
      Forall (fun n => n < 2 ^ ew) ns ->
      (List.length ns <= lf)%nat ->
      loop_count (parse_element fl rec (Some ew) None) lf (len ns)
                 (List.concat (map (bytes_E (f_endian fl) (nbytes ew)) ns) ++ tl)%list acc
      = Ok ((rev acc ++ map VNum ns)%list, tl).
  Proof.
    intros E8. induction ns as [|n ns IH]; intros lf acc tl Hns Hlf.
    - cbn [map List.concat app]. destruct lf; cbn [loop_count len List.length N.of_nat N.eqb];
        now rewrite app_nil_r.
    - inversion Hns as [|? ? Hn Hns']; subst.
      destruct lf as [|lf]; [inversion Hlf|]. apply le_S_n in Hlf.
      cbn [loop_count map List.concat]. rewrite <- app_assoc.
      unfold len at 1 2. cbn [List.length]. rewrite Nat2N.inj_succ, (proj2 (N.eqb_neq _ _) (N.neq_succ_0 _)).
      rewrite (parse_element_scalar ew n _ E8 Hn). cbn [bind].
      rewrite N.sub_1_r, N.pred_succ. fold (len ns).
      rewrite (IH lf (VNum n :: acc) tl Hns' Hlf). cbn [rev]. now rewrite <- app_assoc.
  Qed.

  (** the count [n] of elements of [e] octets that an array shape yields in state [st] *)
  Definition shape_gives (st : dstate) (shape : arr_shape) (n e : N) : Prop :=
    match shape with
    | ShStatic k => k = n
    | ShCount cf => assoc cf (st_locals st) = Some n
    | ShSize sf => assoc sf (st_locals st) = Some (n * e) /\ e <> 0
    | ShUnknown => False
    end.

  Lemma arr_elems_scalars oc lf ew st shape ns tl :
    ew mod 8 = 0 -> Forall (fun n => n < 2 ^ ew) ns -> (List.length ns <= lf)%nat ->
    shape_gives st shape (len ns) (ew / 8) ->
    len (List.concat (map (bytes_E (f_endian fl) (nbytes ew)) ns) ++ tl) < two64 ->
    arr_elems oc lf (parse_element fl rec (Some ew) None) st (EWStatic (ew / 8)) shape
              (List.concat (map (bytes_E (f_endian fl) (nbytes ew)) ns) ++ tl)%list
    = Ok (map VNum ns, tl).
  Proof.
    intros E8 Hns Hlf Hsh H64.
    pose proof (loop_count_scalars ew E8 ns lf [] tl Hns Hlf) as Hloop. cbn [rev app] in Hloop.
    set (work := (List.concat _ ++ tl)%list) in *.
    (* the elements fit the buffer, and the buffer is shorter than 2^64 *)
    assert (Hle : len ns * (ew / 8) <= len work).
    { unfold work. rewrite len_app, len_concat_bytes, nbytes_N. apply N.le_add_r. }
    pose proof (proj2 (N.ltb_ge _ _) Hle) as Hfit.
    pose proof (proj2 (N.ltb_lt _ _) (N.le_lt_trans _ _ _ Hle H64)) as Hmul.
    unfold arr_elems, check_size, local, umul.
    destruct shape as [k|cf|sf|]; cbn [shape_gives] in Hsh.
    - subst k. rewrite Hfit. cbn [bind]. now rewrite Hloop.
    - rewrite Hsh. cbn [bind]. rewrite Hmul. cbn [bind]. rewrite Hfit. cbn [bind]. now rewrite Hloop.
    - (* the count is the size divided by the element width *)
      destruct Hsh as [Hsh He]. rewrite Hsh. cbn [bind]. rewrite Hfit. cbn [bind].
      destruct (ew / 8 =? 1) eqn:E1.
      + apply N.eqb_eq in E1. rewrite E1, N.mul_1_r. cbn [bind]. now rewrite Hloop.
      + rewrite (proj2 (N.eqb_neq _ _) He), (N.mod_mul _ _ He), (N.div_mul _ _ He), N.eqb_refl.
        cbn [bind]. now rewrite Hloop.
    - contradiction.
  Qed.
End Loop.

Section RoundTripArrays.
  Variable oc : bool.
  Variable fl : file.
  Variable sch : schema.
  Variable rec : string -> list byte -> dres (value * list byte).
  Variable lf : nat.
  Variable d : decl.
  Variable refrec : string -> value -> option (list seg).
  Variable all_fields : list field.
  Variable obj : list (string * value).
  Variable payload : list seg.

  Hypothesis Hsch : schema_knows_enums fl sch.
  Hypothesis Henum : enums_exact fl.
  (** enough loop fuel for every array of the value *)
  Hypothesis Hfuel : forall id vs, assoc id obj = Some (VList vs) -> (List.length vs <= lf)%nat.

  Notation RF := (ref_enc_fields fl refrec d all_fields [] obj payload).

  (** "ca": counted arrays.  A size-delimited array needs [0 < ew]: the emitted code divides
      the size by the element width ([arr_elems]: [DivZero]). *)
  Definition ca_field (f : field) : bool :=
    ar_field fl d f &&
    match f_desc f with
    | Padding _ => false
    | Array id (Some ew) None _ sz =>
        match sz with
        | Some n =>
            (* the array the reference looks up by name has the same count: true when
               names are unique *)
            match array_field d id with
            | Some af => match f_desc af with Array _ _ _ _ (Some n') => n' =? n | _ => false end
            | None => false
            end
        | None =>
            match decl_array_size d id with
            | Some g => match f_desc g with Size _ _ => 0 <? ew | _ => true end
            | None => false
            end
        end
    | Array _ _ _ _ _ => false
    | _ => true
    end.

  (** the local of the count / size field of an array is visible when the array is reached *)
  Fixpoint wf_fields (env : list (string * option ltag)) (fs : list field) : bool :=
    match fs with
    | [] => true
    | f :: rest =>
        match f_desc f with
        | Array id _ _ _ None =>
            match decl_array_size d id with
            | Some g =>
                match f_desc g with
                | Count _ _ => env_has env (count_ident id) (true, id)
                | Size _ _ => env_has env (size_ident id) (false, id)
                | _ => false
                end
            | None => false
            end
        | _ => true
        end && wf_fields (binder f ++ env) rest
    end.

  Lemma ca_ar f : ca_field f = true -> ar_field fl d f = true.
  Proof. unfold ca_field. intros H. apply andb_prop in H. tauto. Qed.

  Lemma ca_cond f : ca_field f = true -> f_cond f = None.
  Proof.
    intros H. apply ca_ar in H. unfold ar_field in H. now destruct (f_cond f).
  Qed.

  Lemma ca_bitfield_cases f :
    ca_field f = true -> is_bitfield fl f = true ->
    bf_field fl f = true
    \/ (exists fid w, f_desc f = Count fid w)
    \/ (exists fid w, f_desc f = Size fid w /\ not_payload_id fid = true /\ array_modifier d fid = 0).
  Proof.
    intros Hca Hbit. pose proof (ca_ar f Hca) as Har. unfold ar_field, is_enum in Har.
    unfold bf_field, is_bitfield in *. destruct (f_cond f); [discriminate|].
    destruct (f_desc f); try discriminate; try (left; exact Har); try (left; reflexivity).
    - (* Size *)
      right. right. apply andb_prop in Har as [Har _]. apply andb_prop in Har as [Har Hmod].
      apply andb_prop in Har as [_ Hnp]. apply N.eqb_eq in Hmod. now exists field_id, width.
    - (* Count *) right. left. now exists field_id, width.
  Qed.

  Lemma ca_field_cases f :
    ca_field f = true ->
    is_bitfield fl f = true \/ exists id ew m sz, f_desc f = Array id (Some ew) None m sz.
  Proof.
    intros Hca. pose proof (ar_bitfield fl d f (ca_ar f Hca)) as Hbit.
    unfold ca_field in Hca. apply andb_prop in Hca. destruct Hca as [_ Hca].
    destruct (f_desc f); try (left; exact Hbit); try discriminate.
    destruct width as [ew|]; [|discriminate]. destruct type_id; [discriminate|].
    right. now exists id, ew, size_modifier, size.
  Qed.

  Lemma no_padding_next rest : forallb ca_field rest = true -> next_is_padding rest = None.
  Proof.
    destruct rest as [|g rest]; [reflexivity|].
    cbn [forallb]. intros H. apply andb_prop in H. destruct H as [Hg _].
    unfold ca_field in Hg. apply andb_prop in Hg. destruct Hg as [_ Hg].
    unfold next_is_padding. now destruct (f_desc g).
  Qed.

  (** what the reference derives for a count local: the number of elements of the array;
      for a size local: the octets it writes for them *)
  Definition tagval (t : ltag) : option N :=
    if fst t
    then match assoc (snd t) obj with Some (VList vs) => Some (len vs) | _ => None end
    else option_map (fun ebs => seg_len (List.concat ebs)) (ref_array_elems fl refrec d obj (snd t)).

  Definition realizes (L : list (string * N)) (env : list (string * option ltag)) : Prop :=
    forall k t v, assoc k env = Some (Some t) -> tagval t = Some v -> assoc k L = Some v.

  (** the local an item binds is the one [binder] lists for it, and a count / size local
      holds what the reference derives *)
  Definition tag_ok (it : item) : Prop :=
    match f_desc (item_field it) with
    | Count fid _ => tagval (true, fid) = Some (item_value it)
    | Size fid _ => tagval (false, fid) = Some (item_value it)
    | Flag _ _ | ElementSize _ _ => False
    | _ => True
    end.

  Lemma realizes_item L env it :
    realizes L env -> tag_ok it ->
    realizes (field_local (item_field it) (item_value it) ++ L)%list (binder (item_field it) ++ env)%list.
  Proof.
    intros HR Hck. unfold field_local, binder, tag_ok in *.
    destruct (f_desc (item_field it)); cbn [app]; try exact HR; try contradiction;
      intros k t x Ha Ht; cbn [assoc] in *; (destruct (String.eqb k _); [|exact (HR k t x Ha Ht)]).
    - (* Size *) injection Ha as <-. now rewrite Hck in Ht.
    - (* Count *) injection Ha as <-. now rewrite Hck in Ht.
    - (* Scalar: an untagged name *) discriminate Ha.
    - (* Typedef *) discriminate Ha.
  Qed.

  (** [RoundTrip.vals_of] with an arm for arrays *)
  Definition vals_of' (fs : list field) : list (string * value) :=
    flat_map (fun f =>
                match f_desc f with
                | Scalar id _ | Typedef id _ =>
                    match assoc id obj with Some (VNum n) => [(id, VNum n)] | _ => [] end
                | Array id _ _ _ _ =>
                    match assoc id obj with Some (VList vs) => [(id, VList vs)] | _ => [] end
                | _ => []
                end) fs.

  Lemma vals_of'_cons f rest : vals_of' (f :: rest) = (vals_of' [f] ++ vals_of' rest)%list.
  Proof. unfold vals_of'. cbn [flat_map]. rewrite app_nil_r. reflexivity. Qed.

  Lemma measure_item f fid v w :
    f_cond f = None -> f_desc f = Count fid w \/ f_desc f = Size fid w -> v < 2 ^ w ->
    item_ok fl sch d (f, v, w) /\ item_vals [(f, v, w)] = vals_of' [f].
  Proof.
    intros Hc Hd Hv.
    unfold item_ok, fw_ok, field_size, admits, item_vals, field_val, vals_of'.
    cbn [flat_map item_field item_value fst snd].
    rewrite Hc. destruct Hd as [-> | ->]; repeat split; exact Hv.
  Qed.

  Lemma ref_bitfield_item_counted f v w :
    ca_field f = true -> is_bitfield fl f = true ->
    ref_bitfield fl refrec d all_fields [] obj payload f = Some (v, w) ->
    v < 2 ^ w ->
    item_ok fl sch d (f, v, w) /\ tag_ok (f, v, w) /\ item_vals [(f, v, w)] = vals_of' [f].
  Proof.
    intros Hca Hbit Hrb Hv. pose proof (ca_cond f Hca) as Hc.
    unfold tag_ok. cbn [item_field item_value fst snd].
    destruct (ca_bitfield_cases f Hca Hbit)
      as [Hbf | [(fid & w0 & Ed) | (fid & w0 & Ed & Hnp & Hmod)]].
    - (* of the bit-field fragment: nothing to measure, no array to record *)
      destruct (ref_bitfield_item fl sch d refrec all_fields obj payload Hsch Henum f v w Hbf Hrb Hv)
        as [Hit Hvals].
      split; [exact Hit|]. rewrite Hvals. unfold vals_of, vals_of', bf_field in *. cbn [flat_map].
      rewrite Hc in Hbf. destruct (f_desc f); try discriminate; split; reflexivity || exact I.
    - (* Count *)
      unfold ref_bitfield in Hrb. rewrite Ed in *.
      destruct (assoc fid obj) as [[| |vs|]|] eqn:Ea; try discriminate. injection Hrb as <- <-.
      destruct (measure_item f fid (len vs) w0 Hc (or_introl Ed) Hv) as [Hit Hvals].
      split; [exact Hit|]. split; [|exact Hvals]. unfold tagval. cbn [fst snd]. now rewrite Ea.
    - (* Size *)
      unfold ref_bitfield in Hrb. rewrite Ed in *.
      unfold not_payload_id in Hnp. apply negb_true_iff in Hnp. rewrite Hnp, Hmod in Hrb.
      destruct (ref_array_elems fl refrec d obj fid) as [ebs|] eqn:Era; [|discriminate].
      rewrite N.add_0_r in Hrb. injection Hrb as <- <-.
      destruct (measure_item f fid (seg_len (List.concat ebs)) w0 Hc (or_intror Ed) Hv) as [Hit Hvals].
      split; [exact Hit|]. split; [|exact Hvals]. unfold tagval. cbn [fst snd]. now rewrite Era.
  Qed.

  Lemma render_num_segs ew ns :
    render (f_endian fl) (List.concat (num_segs ew ns))
    = List.concat (map (bytes_E (f_endian fl) (nbytes ew)) ns).
  Proof.
    induction ns as [|n ns IH]; [reflexivity|]. cbn [num_segs map List.concat]. fold (num_segs ew ns).
    now rewrite render_app, render_int, IH.
  Qed.

  Lemma ref_array_nums f id ew m sz ebs :
    f_desc f = Array id (Some ew) None m sz -> ca_field f = true ->
    ref_array_elems fl refrec d obj id = Some ebs ->
    exists ns,
      assoc id obj = Some (VList (map VNum ns)) /\ Forall (fun n => n < 2 ^ ew) ns /\
      render (f_endian fl) (List.concat ebs) = List.concat (map (bytes_E (f_endian fl) (nbytes ew)) ns) /\
      tagval (true, id) = Some (len ns) /\ tagval (false, id) = Some (len ns * (ew / 8)) /\
      (forall n, sz = Some n -> n = len ns).
  Proof.
    intros Ed Hca Era. pose proof (ca_ar f Hca) as Har.
    unfold ca_field in Hca. apply andb_prop in Hca as [_ Hca].
    unfold ar_field in Har. rewrite Ed in Hca, Har. destruct (f_cond f); [discriminate|].
    replace (arr_width fl f) with (Some ew) in Har by (unfold arr_width; now rewrite Ed).
    unfold tagval. cbn [fst snd]. rewrite Era. cbn [option_map]. unfold ref_array_elems in Era.
    destruct (array_field d id) as [af|] eqn:Eaf; [|discriminate].
    destruct (arr_width fl af) as [ew0|] eqn:Ewa; [|discriminate]. apply N.eqb_eq in Har. subst ew0.
    destruct (assoc id obj) as [[| |vs|]|]; try discriminate.
    destruct (array_field_named d id af Eaf) as (w' & t' & m' & s' & Hdaf). rewrite Hdaf in Era, Hca.
    destruct (ref_enc_elems fl refrec w' t' vs) as [ebs0|] eqn:Ee; [|discriminate].
    assert (Hwt : elt_width fl w' t' = Some ew) by (unfold arr_width in Ewa; now rewrite Hdaf in Ewa).
    (* a static count is the one the reference checked: that of the array found by name *)
    assert (ebs0 = ebs /\ forall n, sz = Some n -> n = len vs) as [-> Hsz].
    { destruct sz as [n|].
      - destruct s' as [k|]; [|discriminate]. apply N.eqb_eq in Hca. subst k.
        destruct (len vs =? n) eqn:El; [|discriminate]. apply N.eqb_eq in El.
        split; [now injection Era | intros n' [= <-]; now symmetry].
      - split; [|discriminate].
        destruct s' as [k|]; [destruct (len vs =? k); [|discriminate]|]; now injection Era. }
    destruct (ref_elems_nums fl refrec w' t' ew Hwt vs ebs Ee) as (ns & -> & Hns & ->).
    rewrite num_segs_len, len_map in *. exists ns. repeat split; try assumption. apply render_num_segs.
  Qed.

  Lemma ref_enc_fields_array f id w t m sz rest its ss :
    f_cond f = None -> f_desc f = Array id w t m sz -> forallb ca_field rest = true ->
    pending_items its -> RF (f :: rest) (gsum its) (layout_bits (layout its)) = Some ss ->
    its = [] /\ exists ebs b, ref_array_elems fl refrec d obj id = Some ebs /\ RF rest 0 0 = Some b
                              /\ ss = (List.concat ebs ++ b)%list.
  Proof.
    intros Hc Ed Hrest Hpend Href.
    rewrite ref_enc_fields_cons, Hc in Href. unfold is_bitfield, ref_plain_here in Href. rewrite Ed in Href.
    destruct (layout_bits (layout its) =? 0) eqn:E0; [|discriminate]. apply N.eqb_eq in E0.
    split; [destruct Hpend as [E | Hne]; [exact E | now rewrite E0 in Hne]|].
    cbn [negb] in Href. rewrite (no_padding_next rest Hrest) in Href.
    destruct (ref_array_elems fl refrec d obj id) as [ebs|]; [|discriminate]. cbv zeta in Href.
    destruct (match decl_element_size d id with Some _ => all_same_length ebs | None => true end);
      [|discriminate].
    destruct (RF rest 0 0) as [b|]; [|discriminate]. exists ebs, b. now injection Href as <-.
  Qed.

  Lemma add_array_reference f rest id ew m sz st env ebs tl :
    f_desc f = Array id (Some ew) None m sz ->
    ca_field f = true ->
    wf_fields env (f :: rest) = true ->
    realizes (st_locals st) env ->
    ref_array_elems fl refrec d obj id = Some ebs ->
    st_span st = (render (f_endian fl) (List.concat ebs) ++ tl)%list ->
    len (st_span st) < two64 ->
    gooddec (add_array_field oc fl sch rec lf d st id (Some ew) None sz None)
            (fun st' => st_span st' = tl
                        /\ st_vals st' = (st_vals st ++ vals_of' [f])%list
                        /\ st_payload st' = st_payload st
                        /\ st_locals st' = st_locals st).
  Proof.
    intros Ed Hca Hwf HR Era Hspan H64.
    destruct (ref_array_nums f id ew m sz ebs Ed Hca Era) as (ns & Ea & Hns & Hren & Hcnt & Hsize & Hsz).
    rewrite add_array_field_eq. cbn [ew_of arr_work].
    destruct (ew mod 8 =? 0) eqn:E8; [|exact I]. apply N.eqb_eq in E8. cbn [bind].
    (* the delimiting local is visible and holds the count, or the size, of the value *)
    assert (Hsh : shape_gives st (shape_of d id sz) (len ns) (ew / 8)).
    { unfold ca_field in Hca. apply andb_prop in Hca. destruct Hca as [_ Hca].
      cbn [wf_fields] in Hwf. apply andb_prop in Hwf as [Hwf _]. rewrite Ed in Hca, Hwf. unfold shape_of.
      destruct sz as [n|]; [exact (Hsz n eq_refl)|].
      destruct (decl_array_size d id) as [g|]; [|discriminate].
      destruct (f_desc g); try discriminate; cbn [shape_gives]; apply env_has_spec in Hwf.
      - (* size field: [0 < ew] and [ew mod 8 = 0] *)
        split; [exact (HR _ _ _ Hwf Hsize)|]. intros H0.
        rewrite (N.div_mod' ew 8), H0, E8 in Hca. discriminate Hca.
      - (* count field *) exact (HR _ _ _ Hwf Hcnt). }
    rewrite Hren in Hspan. rewrite Hspan in H64 |- *.
    pose proof (Hfuel id _ Ea) as Hlf. rewrite map_length in Hlf.
    rewrite (arr_elems_scalars fl rec oc lf ew st _ ns tl E8 Hns Hlf Hsh H64).
    unfold vals_of'. cbn. rewrite Ed, Ea. repeat split; reflexivity.
  Qed.

  (** [env] lists the names bound once the pending items are: the locals meant by
      [realizes] are those the decoder will have when it has bound [its]. *)
  Theorem dec_fields_arrays_reference : forall fs its st tl ss env,
    forallb ca_field fs = true ->
    wf_fields env fs = true ->
    Forall (item_ok fl sch d) its -> pending_items its ->
    realizes (push_locals its (st_locals st)) env ->
    RF fs (gsum its) (layout_bits (layout its)) = Some ss ->
    st_span st = (render (f_endian fl) ss ++ tl)%list ->
    len (st_span st) < two64 ->
    gooddec (dec_fields oc fl sch rec lf d fs st (chunk_at (layout its) 0) (layout_bits (layout its)))
            (fun st' => st_span st' = tl
                        /\ st_vals st' = (st_vals st ++ item_vals its ++ vals_of' fs)%list
                        /\ st_payload st' = st_payload st).
  Proof.
    induction fs as [|f rest IH]; intros its st tl ss env Hbf Hwf Hits Hpend HR Href Hspan H64.
    - destruct (ref_enc_fields_nil fl d refrec all_fields obj payload its ss Hpend Href) as [-> ->].
      cbn. repeat split; [exact Hspan | now rewrite app_nil_r].
    - cbn [forallb] in Hbf. apply andb_prop in Hbf. destruct Hbf as [Hf Hrest].
      pose proof (ca_cond f Hf) as Hc.
      pose proof Hwf as Hwf2. cbn [wf_fields] in Hwf2. apply andb_prop in Hwf2 as [_ Hwf2].
      rewrite vals_of'_cons.
      destruct (ca_field_cases f Hf) as [Hbit | (id & ew & m & sz & Ed)].
      + destruct (ref_enc_fields_item fl d refrec all_fields obj payload f rest its ss Hc Hbit Href)
          as (v & w & Erb & Ev & Hnext).
        destruct (ref_bitfield_item_counted f v w Hf Hbit Erb Ev) as (Hit & Htag & Hvals).
        destruct (dec_fields_reference_item fl sch d oc rec lf refrec all_fields obj payload
                    f v w rest its st tl ss Hc Hbit Hits Hit Hnext Hspan)
          as (st1 & its1 & ss1 & Hgo & Href1 & Hspan1 & Hits1 & Hpend1 & Hput & Hlen).
        destruct Hgo as [-> | ->]; [exact I|].
        pose proof (f_equal st_locals Hput) as Hl. pose proof (f_equal st_vals Hput) as Hv.
        pose proof (f_equal st_payload Hput) as Hp.
        cbn [put_items st_locals st_vals st_payload set_span] in Hl, Hv, Hp.
        rewrite push_locals_snoc in Hl.
        assert (HR1 : realizes (push_locals its1 (st_locals st1)) (binder f ++ env))
          by (rewrite Hl; exact (realizes_item _ env (f, v, w) HR Htag)).
        eapply gooddec_impl;
          [exact (IH its1 st1 tl ss1 _ Hrest Hwf2 Hits1 Hpend1 HR1 Href1 Hspan1
                     (N.le_lt_trans _ _ _ Hlen H64))|].
        intros st2 (H1 & H2 & H3).
        rewrite app_assoc, Hv, item_vals_app, Hvals, <- !app_assoc in H2.
        repeat split; [exact H1 | exact H2 | now rewrite H3].
      + rewrite (dec_fields_array oc fl sch rec lf d f rest st _ _ id (Some ew) None m sz Hc Ed).
        rewrite next_padding_spec, (no_padding_next rest Hrest). cbn [option_map].
        destruct (ref_enc_fields_array f id _ _ m sz rest its ss Hc Ed Hrest Hpend Href)
          as (-> & ebs & b & Era & Eb & ->).
        rewrite render_app, <- app_assoc in Hspan.
        eapply gooddec_bind.
        * apply (add_array_reference f rest id ew m sz st env ebs _ Ed Hf Hwf HR Era Hspan H64).
        * intros st1 (Hsp1 & Hv1 & Hp1 & Hl1). cbv beta.
          assert (H641 : len (st_span st1) < two64).
          { rewrite Hsp1. rewrite Hspan, len_app, N.add_comm in H64.
            exact (N.le_lt_trans _ _ _ (N.le_add_r _ _) H64). }
          replace (binder f ++ env)%list with env in Hwf2 by (unfold binder; now rewrite Ed).
          assert (HR1 : realizes (push_locals [] (st_locals st1)) env) by (cbn; rewrite Hl1; exact HR).
          eapply gooddec_impl;
            [exact (IH [] st1 tl b env Hrest Hwf2 (Forall_nil _) (or_introl eq_refl) HR1 Eb Hsp1 H641)|].
          intros st2 (H1 & H2 & H3). cbn [item_vals flat_map app] in H2 |- *.
          rewrite Hv1, <- app_assoc in H2. repeat split; [exact H1 | exact H2 | now rewrite H3].
  Qed.
End RoundTripArrays.

Lemma class_no_payload fl d :
  forallb (ca_field fl d) (decl_fields d) = true -> decl_payload d = None.
Proof.
  intros Hbf. apply find_none_iff. intros f Hin.
  pose proof (ca_ar fl d f (proj1 (forallb_forall _ _) Hbf f Hin)) as Har.
  unfold ar_field in Har. unfold is_payload. destruct (f_cond f); [discriminate|]. now destruct (f_desc f).
Qed.

Theorem rust_dec_decl_arrays_reference fuel oc fl sch refrec d all_fields o payload ss tl :
  schema_knows_enums fl sch -> enums_exact fl ->
  (forall id vs, assoc id o = Some (VList vs) -> (List.length vs <= fuel)%nat) ->
  get_parent fl d = None ->
  forallb (ca_field fl d) (decl_fields d) = true ->
  wf_fields d [] (decl_fields d) = true ->
  ref_enc_fields fl refrec d all_fields [] o payload (decl_fields d) 0 0 = Some ss ->
  len (render (f_endian fl) ss ++ tl) < two64 ->
  gooddec (rust_dec_decl (S fuel) oc fl sch d (render (f_endian fl) ss ++ tl))
          (fun r => r = (VObj (vals_of' o (decl_fields d)), tl)).
Proof.
  intros Hsch Hen Hfuel Hpar Hbf Hwf Href H64.
  rewrite (rust_dec_decl_root _ _ _ _ _ _ Hpar (class_no_payload fl d Hbf)).
  eapply gooddec_bind.
  - refine (dec_fields_arrays_reference oc fl sch _ fuel d refrec all_fields o payload Hsch Hen Hfuel
              (decl_fields d) [] (init_state _) tl ss [] Hbf Hwf (Forall_nil _)
              (or_introl eq_refl) _ Href eq_refl H64).
    intros k t v Ha. discriminate.
  - intros st (Hsp & Hv & _). cbn [gooddec]. rewrite Hsp, Hv. reflexivity.
Qed.

Definition root_of_counted_fragment (fl : file) (d : decl) : Prop :=
  (exists id fs, d = DPacket id [] fs None \/ d = DStruct id [] fs None)
  /\ forallb (ca_field fl d) (decl_fields d) = true
  /\ wf_fields d [] (decl_fields d) = true.

Lemma root_of_counted_arrays fl d : root_of_counted_fragment fl d -> root_of_array_fragment fl d.
Proof.
  intros [Hd [Hbf _]]. split; [exact Hd|]. rewrite forallb_forall in *.
  intros f Hin. apply ca_ar. apply Hbf. exact Hin.
Qed.

Definition canonical_obj' (o : list (string * value)) (fs : list field) : Prop := vals_of' o fs = o.

(** ENCODE THEN DECODE IS THE IDENTITY on root declarations whose fields are bit-fields,
    count / size fields of arrays and arrays of scalars (static count, or delimited by a
    count or size field that precedes them and is not shadowed): for every value the
    reference can encode, any bytes [tl] that follow (the whole buffer shorter than 2^64,
    as every buffer in memory is), both byte orders and overflow modes, and loop fuel
    covering the longest array. *)
Theorem rust_roundtrip_arrays fuel fuel' oc fl sch id d o bs tl :
  schema_knows_enums fl sch -> enums_exact fl ->
  lookup_decl fl id = Some d ->
  root_of_counted_fragment fl d ->
  canonical_obj' o (decl_fields d) ->
  (forall aid vs, assoc aid o = Some (VList vs) -> (List.length vs <= fuel')%nat) ->
  ref_encode (S fuel) fl id (VObj o) = Some bs ->
  len (bs ++ tl) < two64 ->
  match rust_encode (S fuel) fl sch id (VObj o) with
  | Ok bs' =>
      bs' = bs /\
      gooddec (rust_decode (S fuel') oc fl sch id (bs' ++ tl)) (fun r => r = (VObj o, tl))
  | Panic GenAssert => True
  | _ => False
  end.
Proof.
  intros Hsch Hen Hl Hroot Hcan Hfuel Href H64. pose proof Hroot as (Hd & Hbf & Hwf).
  apply (rust_roundtrip_root fuel fuel' oc fl sch id d o bs tl Hl Hd Href).
  - exact (rust_encode_array_fragment fuel fl sch id d (VObj o) bs Hsch Hl
             (root_of_counted_arrays fl d Hroot) Href).
  - intros refrec all_fields payload ss Ef ->.
    pose proof (rust_dec_decl_arrays_reference fuel' oc fl sch refrec d all_fields o payload ss tl Hsch Hen Hfuel
                  (root_decl_parent fl d Hd) Hbf Hwf Ef H64) as Hdec.
    unfold canonical_obj' in Hcan. now rewrite Hcan in Hdec.
Qed.

Theorem rust_roundtrip_arrays_real_schema fuel fuel' oc fl sch id d o bs tl :
  enum_widths_fit fl = true -> mk_schema fl = Some sch ->
  enums_accepted fl ->
  lookup_decl fl id = Some d ->
  root_of_counted_fragment fl d ->
  canonical_obj' o (decl_fields d) ->
  (forall aid vs, assoc aid o = Some (VList vs) -> (List.length vs <= fuel')%nat) ->
  ref_encode (S fuel) fl id (VObj o) = Some bs ->
  len (bs ++ tl) < two64 ->
  match rust_encode (S fuel) fl sch id (VObj o) with
  | Ok bs' =>
      bs' = bs /\
      gooddec (rust_decode (S fuel') oc fl sch id (bs' ++ tl)) (fun r => r = (VObj o, tl))
  | Panic GenAssert => True
  | _ => False
  end.
Proof.
  intros Hw Hs He. apply rust_roundtrip_arrays.
  - apply mk_schema_knows_enums; assumption.
  - apply accepted_enums_exact. exact He.
Qed.

(** a count field, the 16-bit array it counts, a trailing scalar *)
Definition cnt_file : file :=
  mkFile LittleEndian
    [DPacket "C" []
       [mkField (Count "x" 8) None;
        mkField (Array "x" (Some 16) None None None) None;
        mkField (Scalar "t" 8) None] None].

Definition cnt_obj : list (string * value) :=
  [("x", VList [VNum 258; VNum 772; VNum 5]); ("t", VNum 7)].

Example cnt_example_in_class :
  exists sch d,
    mk_schema cnt_file = Some sch /\ enum_widths_fit cnt_file = true /\
    lookup_decl cnt_file "C" = Some d /\ root_of_counted_fragment cnt_file d /\
    canonical_obj' cnt_obj (decl_fields d) /\
    ref_encode 5 cnt_file "C" (VObj cnt_obj) = Some [x03; x02; x01; x04; x03; x05; x00; x07] /\
    rust_encode 5 cnt_file sch "C" (VObj cnt_obj) = Ok [x03; x02; x01; x04; x03; x05; x00; x07] /\
    rust_decode 5 true cnt_file sch "C" [x03; x02; x01; x04; x03; x05; x00; x07; xaa; xbb]
      = Ok (VObj cnt_obj, [xaa; xbb]).
Proof.
  eexists. eexists. split; [vm_compute; reflexivity|]. split; [vm_compute; reflexivity|].
  split; [vm_compute; reflexivity|].
  split; [split; [eexists; eexists; left; reflexivity | split; vm_compute; reflexivity]|].
  split; [vm_compute; reflexivity|].
  split; [vm_compute; reflexivity|]. split; vm_compute; reflexivity.
Qed.

(** every kind of field of the class, big-endian, groups that straddle fields *)
Definition mix_file : file :=
  mkFile BigEndian
    [DEnum "E" [TagValue "A" 1; TagValue "B" 2] 8;
     DPacket "M" []
       [mkField (Scalar "a" 5) None; mkField (Count "x" 3) None;
        mkField (Size "y" 4) None; mkField (Reserved 4) None;
        mkField (Typedef "e" "E") None;
        mkField (Array "x" (Some 16) None None None) None;
        mkField (FixedScalar 8 9) None;
        mkField (Array "y" (Some 8) None None None) None;
        mkField (Array "z" (Some 24) None None (Some 2)) None;
        mkField (Scalar "t" 8) None] None].

Definition mix_obj : list (string * value) :=
  [("a", VNum 21); ("e", VNum 2); ("x", VList [VNum 258; VNum 772]); ("y", VList [VNum 1; VNum 2; VNum 3]);
   ("z", VList [VNum 66051; VNum 5]); ("t", VNum 7)].

Example mix_example_in_class :
  exists sch d bs,
    mk_schema mix_file = Some sch /\ enum_widths_fit mix_file = true /\
    lookup_decl mix_file "M" = Some d /\ root_of_counted_fragment mix_file d /\
    canonical_obj' mix_obj (decl_fields d) /\
    ref_encode 5 mix_file "M" (VObj mix_obj) = Some bs /\
    rust_encode 5 mix_file sch "M" (VObj mix_obj) = Ok bs /\
    rust_decode 5 false mix_file sch "M" (bs ++ [xaa; xbb]) = Ok (VObj mix_obj, [xaa; xbb]).
Proof.
  eexists. eexists. eexists. split; [vm_compute; reflexivity|]. split; [vm_compute; reflexivity|].
  split; [vm_compute; reflexivity|].
  split; [split; [eexists; eexists; left; reflexivity | split; vm_compute; reflexivity]|].
  split; [vm_compute; reflexivity|].
  split; [vm_compute; reflexivity|]. split; vm_compute; reflexivity.
Qed.

(** Without [wf_fields] the statement is false.
    A scalar named like the count local of an array, declared between the count field
    and the array.  The emitted function binds [x_count] twice ([let x_count = .. as
    usize] for the count field, [let x_count = ..] for the scalar); the second shadows
    the first, and the array loop runs [x_count]-the-scalar times.  Every field is in
    the class; the reference encodes the value; the emitted decoder rejects the
    reference bytes, or returns another value and leaves bytes behind.
    (Observed on the real pdlc: the file is accepted and the emitted decode contains
    [let x_count = buf.get_u8() as usize; .. let x_count = buf.get_u8();
     if buf.remaining() < x_count * 2usize]; with the scalar's integer type the product
    [u8 * usize] is then a type error for rustc, so in practice the generated crate does
    not build.) *)
Definition shadow_file : file :=
  mkFile LittleEndian
    [DPacket "S" []
       [mkField (Count "x" 8) None;
        mkField (Scalar "x_count" 8) None;
        mkField (Array "x" (Some 16) None None None) None] None].

Example shadowed_count_counter_example :
  exists sch d,
    mk_schema shadow_file = Some sch /\ lookup_decl shadow_file "S" = Some d /\
    forallb (ca_field shadow_file d) (decl_fields d) = true /\
    wf_fields d [] (decl_fields d) = false /\
    (* the scalar larger than the count: the reference bytes are rejected *)
    ref_encode 5 shadow_file "S" (VObj [("x_count", VNum 2); ("x", VList [VNum 1])])
      = Some [x01; x02; x01; x00] /\
    rust_encode 5 shadow_file sch "S" (VObj [("x_count", VNum 2); ("x", VList [VNum 1])])
      = Ok [x01; x02; x01; x00] /\
    rust_decode 5 true shadow_file sch "S" [x01; x02; x01; x00] = Err LengthError /\
    (* the scalar smaller: another value, the element left in the remainder *)
    ref_encode 5 shadow_file "S" (VObj [("x_count", VNum 0); ("x", VList [VNum 1])])
      = Some [x01; x00; x01; x00] /\
    rust_decode 5 true shadow_file sch "S" [x01; x00; x01; x00]
      = Ok (VObj [("x_count", VNum 0); ("x", VList [])], [x01; x00]).
Proof.
  eexists. eexists. split; [vm_compute; reflexivity|]. split; [vm_compute; reflexivity|].
  repeat split; vm_compute; reflexivity.
Qed.

(** A count field declared AFTER its array: the emitted code uses [x_count] before it is
    bound (it does not compile); the reference has an encoding. *)
Definition late_file : file :=
  mkFile LittleEndian
    [DPacket "L" []
       [mkField (Array "x" (Some 8) None None None) None;
        mkField (Count "x" 8) None] None].

Example late_count_counter_example :
  exists sch d,
    mk_schema late_file = Some sch /\ lookup_decl late_file "L" = Some d /\
    forallb (ca_field late_file d) (decl_fields d) = true /\
    wf_fields d [] (decl_fields d) = false /\
    ref_encode 5 late_file "L" (VObj [("x", VList [VNum 1])]) = Some [x01; x01] /\
    rust_decode 5 true late_file sch "L" [x01; x01] = Panic GenTodo.
Proof.
  eexists. eexists. split; [vm_compute; reflexivity|]. split; [vm_compute; reflexivity|].
  repeat split; vm_compute; reflexivity.
Qed.

Print Assumptions loop_count_scalars.
Print Assumptions dec_fields_arrays_reference.
Print Assumptions rust_dec_decl_arrays_reference.
Print Assumptions rust_roundtrip_arrays.
Print Assumptions rust_roundtrip_arrays_real_schema.
Print Assumptions cnt_example_in_class.
Print Assumptions mix_example_in_class.
Print Assumptions shadowed_count_counter_example.
Print Assumptions late_count_counter_example.
