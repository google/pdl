(** C05, the LENGTH LAW: whenever the emitted [encode] succeeds, it wrote as many bytes as
    the emitted [encoded_len()] computes.  [enc_fields] and [len_fields] walk the same field
    list with the same bit shift, and a bit-field group that closes at [shift'] gives
    [shift' / 8] on both sides whatever is pending, so no invariant between the pending
    list and the shift is needed.  For whole declarations, through parents and nested
    types, one premise stays ([static_law]): a type to which the schema gives a static
    size encodes to that many bytes.  The model breaks it on ill-typed values
    ([static_array_ill_typed]). *)
From Coq Require Import NArith List String Bool.
From Coq Require Import Strings.Byte.
From PDL Require Import Base.Bits Base.Outcome Lang.Ast Lang.Sexp Analyzer.Schema Rust.Enum
     Sem.RefEncode Rust.Encode Proofs.Pack Proofs.EncodeEqns Proofs.BitfieldEncode Proofs.SchemaEnums Proofs.ListFacts.
Import ListNotations.
Open Scope N_scope.

Lemma len_nil {A} : len (@nil A) = 0.
Proof. reflexivity. Qed.

Lemma put_chunk_len fl w n : len (put_chunk fl w n) = w / 8.
Proof. unfold len. rewrite put_chunk_length. apply N2Nat.id. Qed.

Definition writes (x : eres (list byte)) (n : option N) : Prop :=
  forall bs, x = Ok bs -> n = Some (len bs).

Lemma writes_nil : writes (Ok []) (Some 0).
Proof. intros bs [= <-]. reflexivity. Qed.

Lemma writes_chunk fl w n : writes (Ok (put_chunk fl w n)) (Some (w / 8)).
Proof. intros bs [= <-]. rewrite put_chunk_len. reflexivity. Qed.

Lemma writes_oapp x y a b : writes x a -> writes y b -> writes (oapp x y) (add_len a b).
Proof.
  intros Hx Hy bs H. destruct x as [xs| | |]; try discriminate H. destruct y as [ys| | |]; try discriminate H.
  injection H as <-. rewrite (Hx xs eq_refl), (Hy ys eq_refl), len_app. reflexivity.
Qed.

Lemma writes_padded x n k :
  writes x (Some n) -> n <= k ->
  writes (let* bs := x in Ok (bs ++ zeros (N.to_nat (k - n)))%list) (Some k).
Proof.
  intros Hx Hle bs H. destruct x as [ebs| | |]; try discriminate H.
  injection H as <-. injection (Hx ebs eq_refl) as ->.
  rewrite len_app, zeros_len, N2Nat.id, N.add_comm, N.sub_add by exact Hle.
  reflexivity.
Qed.

Lemma pack_bit_fields_len fl p shift : writes (pack_bit_fields fl p shift) (Some (shift / 8)).
Proof.
  unfold pack_bit_fields. destruct (integer_width shift); [|intros ? [=]].
  destruct p; [|apply writes_chunk]. intros bs [= <-]. rewrite zeros_len, nbytes_N. reflexivity.
Qed.

(** closes a goal [writes x n] where [x] is an error, a panic, no bytes or one chunk *)
Local Ltac leaf := first [let H := fresh in intros ? H; discriminate H | exact writes_nil | apply writes_chunk].
(** the checks of range and width around one chunk: down the match tree to such leaves *)
Local Ltac walk :=
  repeat first
    [ leaf
    | match goal with |- writes (match ?x with _ => _ end) _ => destruct x end ].

(** The type identifier through which a field may reach [rec_enc] / [rec_len]: the type of
    a typedef unless it is an enum or a sized custom field, the element type of an array
    unless it is an enum.  It errs towards [Some]: also types that have no encoder. *)
Definition rec_tid (fl : file) (f : field) : option string :=
  match f_desc f with
  | Typedef _ tid =>
      match lookup_decl fl tid with
      | Some (DEnum _ _ _) => None
      | Some (DCustomField _ (Some _) _) => None
      | _ => Some tid
      end
  | Array _ None (Some tid) _ _ =>
      match lookup_decl fl tid with
      | Some (DEnum _ _ _) => None
      | _ => Some tid
      end
  | _ => None
  end.

(** an array has an element width or an element type (the parser produces nothing else;
    for [Array _ None None _ _] the model's [put_elems] of the empty list succeeds while
    [array_octets_schema] is undefined) *)
Definition arr_wf (f : field) : bool :=
  match f_desc f with
  | Array _ None None _ _ => false
  | _ => true
  end.

Definition schema_knows_customs (fl : file) (sch : schema) : Prop :=
  forall tid i w fn, lookup_decl fl tid = Some (DCustomField i (Some w) fn) ->
                     type_total sch tid = Some (SStatic w).

Section Len.
  Variable fl : file.
  Variable sch : schema.
  Variable rec_enc : string -> value -> eres (list byte).
  Variable rec_len : string -> value -> option N.
  Variable d : decl.
  Variable all_fields : list field.
  Variable cs : list constr.
  Variable obj : list (string * value).
  Variable payload_act : eres (list byte).
  Variable payload_size : N.
  (** the type identifiers whose [encode] is known to obey the law *)
  Variable T : string -> Prop.

  Hypothesis Hsch : schema_knows_enums fl sch.
  Hypothesis Hcust : schema_knows_customs fl sch.
  Hypothesis Hrec : forall tid v bs, T tid -> rec_enc tid v = Ok bs -> rec_len tid v = Some (len bs).
  Hypothesis Hstatic : forall tid v bs w, T tid -> rec_enc tid v = Ok bs ->
                                          type_static_bits sch tid = Some w -> len bs = w / 8.
  Hypothesis Hpay : forall pl, payload_act = Ok pl -> len pl = payload_size.

  Lemma enum_static tid i tags w :
    lookup_decl fl tid = Some (DEnum i tags w) -> type_static_bits sch tid = Some w.
  Proof.
    intros Hl. unfold type_static_bits. now rewrite (schema_enum_total _ _ _ _ _ _ Hsch Hl).
  Qed.

  Lemma custom_static tid i w fn :
    lookup_decl fl tid = Some (DCustomField i (Some w) fn) -> type_static_bits sch tid = Some w.
  Proof. intros Hl. unfold type_static_bits. rewrite (Hcust tid i w fn Hl). reflexivity. Qed.

  Lemma rec_typed tid v :
    T tid ->
    writes (rec_enc tid v)
           match type_static_bits sch tid with Some w => Some (w / 8) | None => rec_len tid v end.
  Proof.
    intros Ht bs H. destruct (type_static_bits sch tid) as [w|] eqn:Es.
    - rewrite (Hstatic _ _ _ _ Ht H Es). reflexivity.
    - exact (Hrec _ _ _ Ht H).
  Qed.

  Definition trusted (f : field) : Prop := forall tid, rec_tid fl f = Some tid -> T tid.

  Definition elem_len (f : field) (v : value) : option N :=
    match f_desc f with
    | Array _ (Some w) _ _ _ => Some (w / 8)
    | Array _ None (Some tid) _ _ =>
        match type_static_bits sch tid with Some w => Some (w / 8) | None => rec_len tid v end
    | _ => None
    end.

  Lemma put_elem_len f v : trusted f -> writes (put_elem fl rec_enc f v) (elem_len f v).
  Proof.
    unfold trusted, rec_tid, put_elem, elem_len. intros Ht.
    destruct (f_desc f) as [ | | | | | | | | | |aid [w|] [tid|] md sz| | | | ]; try leaf.
    1,2: destruct v; leaf.
    destruct (lookup_decl fl tid) as [[ | |i tags w| | | | ]|] eqn:El;
      try (apply rec_typed, Ht; reflexivity).
    rewrite (enum_static _ _ _ _ El). destruct v; leaf.
  Qed.

  Lemma put_elems_len f vs :
    trusted f ->
    writes (put_elems fl rec_enc f vs) (fold_right (fun v => add_len (elem_len f v)) (Some 0) vs).
  Proof.
    intros Ht. induction vs as [|v vs IH]; [exact writes_nil|].
    rewrite put_elems_cons. exact (writes_oapp _ _ _ _ (put_elem_len f v Ht) IH).
  Qed.

  Lemma add_len_const c (vs : list value) :
    fold_right (fun _ => add_len (Some c)) (Some 0) vs = Some (len vs * c).
  Proof.
    induction vs as [|v vs IH]; [reflexivity|]. cbn [fold_right]. rewrite IH, len_cons.
    cbn [add_len]. now rewrite N.mul_add_distr_r, N.mul_1_l.
  Qed.

  Lemma array_octets_elems f aid ow ot md sz vs :
    f_desc f = Array aid ow ot md sz -> arr_wf f = true ->
    array_octets_schema sch rec_len f vs = fold_right (fun v => add_len (elem_len f v)) (Some 0) vs.
  Proof.
    unfold arr_wf, array_octets_schema, elem_len. intros ->.
    destruct ow as [w|]; [intros _; symmetry; apply add_len_const|].
    destruct ot as [tid|]; [intros _|discriminate].
    destruct (type_static_bits sch tid); [symmetry; apply add_len_const|reflexivity].
  Qed.

  Lemma opt_here_len f : trusted f -> writes (opt_here fl rec_enc obj f) (opt_len fl rec_len obj f).
  Proof.
    unfold trusted, rec_tid, opt_here, opt_len, ill. intros Ht.
    destruct (assoc _ obj) as [v|]; [|leaf].
    destruct (f_desc f) as [ | | | | | | | | | | |sid w| |tyid tid| ]; try (destruct v; leaf).
    - (* Scalar *) destruct v; walk.
    - (* Typedef *)
      destruct (lookup_decl fl tid) as [[ | |i tags w| |i cs0 fs0 par| | ]|]; try (destruct v; leaf).
      + (* DEnum *) destruct v; walk.
      + (* DStruct *)
        destruct v; try leaf; intros bs H; exact (Hrec _ _ _ (Ht tid eq_refl) H).
  Qed.

  Lemma plain_here_len f rest shift :
    arr_wf f = true -> trusted f ->
    writes (plain_here fl sch rec_enc rec_len obj payload_act f rest shift)
           (plain_len sch rec_len obj payload_size f rest).
  Proof.
    intros Hwf Ht. unfold plain_here, plain_len, ill.
    destruct (f_desc f) as [ |pn| | | | |pm| | | |aid ow ot md sz| | |tyid tid| ] eqn:Ed; try leaf.
    1,2: intros pl H; rewrite (Hpay _ H); reflexivity.
    - (* Array *)
      destruct (negb (shift =? 0)); [leaf|].
      destruct (obj_list obj aid) as [vs|]; [|leaf].
      pose proof (put_elems_len f vs Ht) as He.
      rewrite <- (array_octets_elems f _ _ _ _ _ vs Ed Hwf) in He.
      destruct (next_padding rest) as [pbits|]; [|exact He].
      destruct (array_octets_schema sch rec_len f vs) as [asz|]; [|leaf].
      destruct (pbits / 8 <? asz) eqn:Elt; [leaf|].
      exact (writes_padded _ _ _ He (proj1 (N.ltb_ge _ _) Elt)).
    - (* Typedef *)
      unfold trusted, rec_tid in Ht. rewrite Ed in Ht.
      destruct (negb (shift =? 0)); [leaf|].
      destruct (lookup_decl fl tid) as [[ |i [w|] fn| | | | | ]|] eqn:El; try leaf;
        destruct (assoc tyid obj) as [v|]; try leaf.
      + (* DCustomField, sized *)
        rewrite (custom_static _ _ _ _ El). walk.
      + (* DCustomField, unsized *) apply rec_typed, Ht. reflexivity.
      + (* DStruct *) apply rec_typed, Ht. reflexivity.
  Qed.

  (** what [enc_fields_len] asks of a field list: arrays are well formed, and nested types lie
      in [T], where [Hrec] gives the law *)
  Definition cls (fs : list field) : Prop :=
    forall f, In f fs -> arr_wf f = true /\ (forall tid, rec_tid fl f = Some tid -> T tid).

  Theorem enc_fields_len : forall fs p shift bs,
    cls fs ->
    enc_fields fl sch rec_enc rec_len d all_fields cs obj payload_act payload_size fs p shift = Ok bs ->
    len_fields fl sch rec_len d obj payload_size fs shift = Some (len bs).
  Proof.
    intros fs p shift bs Hcls. revert p shift bs.
    induction fs as [|f rest IH]; intros p shift; [exact writes_nil|].
    specialize (IH (fun f' Hin => Hcls f' (or_intror Hin))).
    destruct (Hcls f (or_introl eq_refl)) as [Hwf Ht].
    rewrite enc_fields_cons, len_fields_cons.
    destruct (f_cond f).
    - destruct (negb (shift =? 0)); [leaf|].
      exact (writes_oapp _ _ _ _ (opt_here_len f Ht) (IH p shift)).
    - destruct (is_bitfield fl f).
      + (* a bit-field, whatever value it carries *)
        destruct (field_size sch d f) as [[width| |]|]; try leaf.
        destruct (bf_entry _ _ _ _ _ _ _ _ _ _) as [entry| | |]; try leaf. cbn [bind].
        destruct (_ =? 0); [|exact (IH _ _)].
        exact (writes_oapp _ _ _ _ (pack_bit_fields_len fl _ _) (IH _ _)).
      + exact (writes_oapp _ _ _ _ (plain_here_len f rest shift Hwf Ht) (IH p shift)).
  Qed.
End Len.

Lemma bytes_of_value_cons v l :
  bytes_of_value (VList (v :: l)) =
  match v with
  | VNum n => if n <? 256 then option_map (cons (byte_of_N n)) (bytes_of_value (VList l)) else None
  | _ => None
  end.
Proof. reflexivity. Qed.

Lemma bytes_of_value_len l : forall pl, bytes_of_value (VList l) = Some pl -> len pl = len l.
Proof.
  induction l as [|v l IH]; intros pl; [intros [= <-]; reflexivity|].
  rewrite bytes_of_value_cons. destruct v as [n| | |]; try discriminate.
  destruct (n <? 256); [|discriminate].
  destruct (bytes_of_value (VList l)) as [pl'|]; [|discriminate].
  intros [= <-]. rewrite !len_cons, (IH pl' eq_refl). reflexivity.
Qed.

Lemma obj_payload_len_eq o pl : obj_payload o = Some pl -> len pl = obj_payload_len o.
Proof.
  unfold obj_payload, obj_payload_len. destruct (assoc "payload" o) as [v|].
  - destruct v as [n| |l|kv]; try discriminate. apply bytes_of_value_len.
  - intros H. inversion H. reflexivity.
Qed.

Definition decl_law (fuel : nat) (fl : file) (sch : schema) (d : decl) : Prop :=
  forall all_fields cs obj pa ps,
    (forall pl, pa = Ok pl -> len pl = ps) ->
    writes (rust_enc_decl fuel fl sch d all_fields cs obj pa ps) (rust_len_decl fuel fl sch d obj ps).

Lemma top_of_decl fuel fl sch id :
  (forall d, lookup_decl fl id = Some d -> decl_law fuel fl sch d) ->
  forall v, writes (rust_encode fuel fl sch id v) (rust_len_top fuel fl sch id v).
Proof.
  intros HA v. destruct (rust_top_spec fuel fl sch id v) as [v k n _| |d o pl Hl _ Hp]; try leaf.
  rewrite <- (obj_payload_len_eq _ _ Hp). apply (HA d Hl). intros pl0 [= <-]. reflexivity.
Qed.

Definition static_law (fl : file) (sch : schema) (T : string -> Prop) : Prop :=
  forall fuel tid v bs w, T tid ->
    rust_encode fuel fl sch tid v = Ok bs -> type_static_bits sch tid = Some w -> len bs = w / 8.

(** The law for every declaration of a family [D]: closed under parents, the fields of its
    declarations reach only types of [T], and the declarations of those types are in [D]
    again.  [D] is indexed by the fuel that is left, because the encoder spends one unit
    on each parent and each nested type: what lies further than its fuel is never asked. *)
Section Closed.
  Variable fl : file.
  Variable sch : schema.
  Hypothesis Hsch : schema_knows_enums fl sch.
  Hypothesis Hcust : schema_knows_customs fl sch.
  Variable T : string -> Prop.
  Variable D : nat -> decl -> Prop.
  Hypothesis Hstatic : static_law fl sch T.
  Hypothesis D_fields : forall n d, D (S n) d -> cls fl T (decl_fields d).
  Hypothesis D_parent : forall n d p, D (S n) d -> get_parent fl d = Some p -> D n p.
  Hypothesis D_types : forall n tid d, T tid -> lookup_decl fl tid = Some d -> D n d.

  Lemma decl_law_closed : forall fuel d, D fuel d -> decl_law fuel fl sch d.
  Proof.
    induction fuel as [|fuel IH]; intros d Hd all_fields cs obj pa ps Hpa; [leaf|].
    assert (Hrec : forall tid v bs, T tid -> rust_encode fuel fl sch tid v = Ok bs ->
                                    rust_len_top fuel fl sch tid v = Some (len bs)).
    { intros tid v bs Ht. apply top_of_decl. intros d' Hl. exact (IH d' (D_types fuel tid d' Ht Hl)). }
    pose proof (fun p0 s0 bs0 =>
      enc_fields_len fl sch _ _ d all_fields cs obj pa ps T Hsch Hcust Hrec (Hstatic fuel) Hpa
                     (decl_fields d) p0 s0 bs0 (D_fields fuel d Hd)) as Hown.
    rewrite rust_enc_decl_S, rust_len_decl_S. cbv zeta.
    destruct (get_parent fl d) as [p|] eqn:Hp.
    - (* the bytes of [d] are the parent's payload, their number its payload size *)
      destruct (len_fields _ _ _ _ _ _ _ _) as [own_size|] eqn:El; [|leaf].
      apply (IH p (D_parent fuel d p Hd Hp)). intros pl H.
      rewrite (Hown _ _ _ H) in El. injection El as <-. reflexivity.
    - intros bs H. rewrite (Hown _ _ _ H). reflexivity.
  Qed.
End Closed.

(** No premise about the emitted code: declarations whose fields -- their own and their
    ancestors' -- never reach a struct or an unsized custom type.  Everything else is
    allowed: all bit-field kinds, optional scalars and enums, payload / body, padding,
    arrays of scalars and enums (padded or not), sized custom fields.  [chain_rec_free]
    looks as far up the chain as the encoder's own fuel reaches. *)
Definition rec_free (fl : file) (d : decl) : bool :=
  forallb (fun f => arr_wf f && match rec_tid fl f with None => true | Some _ => false end)
          (decl_fields d).

Fixpoint chain_rec_free (fuel : nat) (fl : file) (d : decl) : bool :=
  match fuel with
  | O => true
  | S k => rec_free fl d && match get_parent fl d with
                            | Some p => chain_rec_free k fl p
                            | None => true
                            end
  end.

Lemma rec_free_cls fl d : rec_free fl d = true -> cls fl (fun _ => False) (decl_fields d).
Proof.
  unfold rec_free. rewrite forallb_forall. intros H f Hin.
  apply H, andb_true_iff in Hin as [Hwf Hr]. split; [exact Hwf|].
  intros tid Et. rewrite Et in Hr. discriminate.
Qed.

Section RecFree.
  Variable fl : file.
  Variable sch : schema.
  Hypothesis Hsch : schema_knows_enums fl sch.
  Hypothesis Hcust : schema_knows_customs fl sch.

  Theorem rust_encode_len_rec_free fuel id d v bs :
    lookup_decl fl id = Some d ->
    chain_rec_free fuel fl d = true ->
    rust_encode fuel fl sch id v = Ok bs ->
    rust_encoded_len fuel fl sch id v = Some (len bs).
  Proof.
    intros Hl Hc. apply top_of_decl. intros d' Hd'. rewrite Hl in Hd'. injection Hd' as <-.
    apply (decl_law_closed fl sch Hsch Hcust (fun _ => False) (fun n d => chain_rec_free n fl d = true));
      [| | | |exact Hc].
    - intros n tid v' bs' w [].
    - intros n d' Hd. apply andb_true_iff in Hd as [Hd _]. exact (rec_free_cls fl d' Hd).
    - intros n d' p Hd Hp. apply andb_true_iff in Hd as [_ Hd]. rewrite Hp in Hd. exact Hd.
    - intros n tid d' [].
  Qed.

  Corollary rust_encode_len_root fuel id d v bs :
    lookup_decl fl id = Some d ->
    get_parent fl d = None ->
    rec_free fl d = true ->
    rust_encode (S fuel) fl sch id v = Ok bs ->
    rust_encoded_len (S fuel) fl sch id v = Some (len bs).
  Proof.
    intros Hl Hp Hr. apply (rust_encode_len_rec_free (S fuel) id d v bs Hl).
    cbn [chain_rec_free]. rewrite Hr, Hp. reflexivity.
  Qed.
End RecFree.

Definition custom_widths_fit (fl : file) : bool :=
  forallb (fun d => match d with DCustomField _ (Some w) _ => fits_usize w | _ => true end) (f_decls fl).

Lemma annotate_custom s i w fn e :
  annotate_decl s (DCustomField i (Some w) fn) = Some e -> e = mkDs (SStatic w) (SStatic 0) (SStatic 0).
Proof.
  unfold annotate_decl. cbn [decl_parent_id decl_fields annotate_fields].
  intros H. inversion H. reflexivity.
Qed.

Theorem mk_schema_knows_customs fl sch :
  custom_widths_fit fl = true -> mk_schema fl = Some sch -> schema_knows_customs fl sch.
Proof.
  intros Hfit Hmk tid i w fn Hl.
  destruct (mk_schema_entry _ _ _ _ Hmk Hl) as (pre & post & s' & e & _ & _ & Hann & Has).
  apply annotate_custom in Hann. subst e.
  unfold type_total. rewrite Has, ds_total_static.
  unfold custom_widths_fit in Hfit. rewrite forallb_forall in Hfit.
  now rewrite (Hfit _ (lookup_decl_In _ _ _ Hl)).
Qed.

Theorem rust_encode_len_real_schema fuel fl sch id d v bs :
  enum_widths_fit fl = true -> custom_widths_fit fl = true ->
  mk_schema fl = Some sch ->
  lookup_decl fl id = Some d ->
  chain_rec_free fuel fl d = true ->
  rust_encode fuel fl sch id v = Ok bs ->
  rust_encoded_len fuel fl sch id v = Some (len bs).
Proof.
  intros He Hc Hmk. apply rust_encode_len_rec_free.
  - exact (mk_schema_knows_enums fl sch He Hmk).
  - exact (mk_schema_knows_customs fl sch Hc Hmk).
Qed.

(** Every declaration of a file, nested types and parents included, under the one premise
    about the emitted code, [static_law]. *)
Definition file_arrs_wf (fl : file) : bool :=
  forallb (fun d => forallb arr_wf (decl_fields d)) (f_decls fl).

Section Full.
  Variable fl : file.
  Variable sch : schema.
  Hypothesis Hsch : schema_knows_enums fl sch.
  Hypothesis Hcust : schema_knows_customs fl sch.
  Hypothesis Hwf : file_arrs_wf fl = true.
  Hypothesis Hstatic : static_law fl sch (fun _ => True).

  Theorem rust_encode_len : forall fuel id v bs,
    rust_encode fuel fl sch id v = Ok bs -> rust_encoded_len fuel fl sch id v = Some (len bs).
  Proof.
    intros fuel id v. apply top_of_decl. intros d Hl.
    apply (decl_law_closed fl sch Hsch Hcust (fun _ => True) (fun _ d => In d (f_decls fl)));
      [| | | |exact (lookup_decl_In _ _ _ Hl)].
    - exact Hstatic.
    - intros n d' Hd f Hin. split; [exact (forallb_decl_fields arr_wf fl d' f Hwf Hd Hin)|intros; exact I].
    - intros n d' p _. apply get_parent_In.
    - intros n tid d' _. apply lookup_decl_In.
  Qed.
End Full.

(** Files in which no struct or packet has a static size: [static_law] is then a theorem
    (only sized custom fields have a static size and an [encode]), and the law holds for
    every declaration with nothing assumed about the emitted code. *)
Definition no_static_structs (fl : file) (sch : schema) : bool :=
  forallb (fun d => match d with
                    | DStruct id _ _ _ | DPacket id _ _ _ =>
                        match type_static_bits sch id with None => true | Some _ => false end
                    | _ => true
                    end) (f_decls fl).

Lemma static_of_no_static_structs fl sch :
  schema_knows_customs fl sch -> no_static_structs fl sch = true ->
  static_law fl sch (fun _ => True).
Proof.
  intros Hcust Hns fuel tid v bs w _ H Es. revert H.
  destruct (rust_top_spec fuel fl sch tid v) as [v k n _|i cw fn n El|d o pl El Hc _]; [discriminate| |].
  - unfold type_static_bits in Es. rewrite (Hcust _ _ _ _ El) in Es. injection Es as <-.
    intros [= <-]. apply put_chunk_len.
  - pose proof (lookup_decl_id _ _ _ El) as Hid.
    unfold no_static_structs in Hns. rewrite forallb_forall in Hns.
    specialize (Hns d (lookup_decl_In _ _ _ El)).
    destruct d; try discriminate Hc; cbn [decl_id] in Hid; injection Hid as ->;
      rewrite Es in Hns; discriminate.
Qed.

Theorem rust_encode_len_dynamic_structs fuel fl sch id v bs :
  enum_widths_fit fl = true -> custom_widths_fit fl = true ->
  mk_schema fl = Some sch ->
  file_arrs_wf fl = true ->
  no_static_structs fl sch = true ->
  rust_encode fuel fl sch id v = Ok bs ->
  rust_encoded_len fuel fl sch id v = Some (len bs).
Proof.
  intros He Hc Hmk Hwf Hns.
  pose proof (mk_schema_knows_customs fl sch Hc Hmk) as Hcust.
  apply (rust_encode_len fl sch (mk_schema_knows_enums fl sch He Hmk) Hcust Hwf).
  exact (static_of_no_static_structs fl sch Hcust Hns).
Qed.

Open Scope string_scope.

Definition lfld (x : fdesc) : field := mkField x None.

(** every bit-field kind but an element size, an optional scalar under a flag, scalar and
    enum arrays (one padded), a sized custom field, a payload, and a child packet *)
Definition len_file : file :=
  mkFile LittleEndian
    [DEnum "E" [TagValue "A" 1; TagValue "B" 2] 8;
     DCustomField "C" (Some 16) "c";
     DPacket "P" []
       [lfld (Scalar "a" 4); lfld (Flag "fo" [("o", 1)]); lfld (Reserved 3);
        lfld (Typedef "e" "E");
        lfld (Size "_payload_" 8); lfld (Count "x" 8);
        lfld (Array "x" (Some 16) None None None);
        lfld (Array "y" None (Some "E") None None); lfld (Padding 4);
        lfld (Typedef "c" "C");
        mkField (Scalar "o" 16) (Some (mkConstr "fo" (Some 1) None));
        lfld (Payload None)] None;
     DPacket "Q" [] [lfld (Scalar "q" 8); lfld (FixedScalar 8 7); lfld (FixedEnum "E" "B")] (Some "P")].

Definition len_value : value :=
  VObj [("a", VNum 5); ("e", VNum 2); ("x", VList [VNum 258; VNum 772]); ("y", VList [VNum 1]);
        ("c", VNum 4660); ("o", VNum 7); ("q", VNum 9)].

Example len_example :
  exists sch d, mk_schema len_file = Some sch /\
    enum_widths_fit len_file = true /\ custom_widths_fit len_file = true /\
    lookup_decl len_file "Q" = Some d /\ chain_rec_free 5 len_file d = true /\
    rust_encode 5 len_file sch "Q" len_value
      = Ok [x15; x02; x03; x02; x02; x01; x04; x03; x01; x00; x00; x00; x34; x12; x07; x00; x09; x07; x02] /\
    rust_encoded_len 5 len_file sch "Q" len_value = Some 19.
Proof. do 2 eexists. repeat (split; [reflexivity|]). reflexivity. Qed.

Example len_example_every_value sch v bs :
  mk_schema len_file = Some sch ->
  rust_encode 5 len_file sch "Q" v = Ok bs ->
  rust_encoded_len 5 len_file sch "Q" v = Some (len bs).
Proof.
  intros Hmk. destruct len_example as (sch' & d & _ & He & Hc & Hl & Hch & _).
  exact (rust_encode_len_real_schema 5 len_file sch "Q" d v bs He Hc Hmk Hl Hch).
Qed.

Definition dyn_file : file :=
  mkFile BigEndian
    [DStruct "S" [] [lfld (Count "a" 8); lfld (Array "a" (Some 8) None None None)] None;
     DPacket "P" []
       [lfld (Flag "fo" [("o", 1)]); lfld (Reserved 7);
        lfld (Typedef "s" "S");
        mkField (Typedef "o" "S") (Some (mkConstr "fo" (Some 1) None));
        lfld (Array "ss" None (Some "S") None None)] None].

Definition dyn_S (l : list N) : value := VObj [("a", VList (map VNum l))].
Definition dyn_value : value :=
  VObj [("s", dyn_S [1; 2]); ("o", dyn_S [3]); ("ss", VList [dyn_S []; dyn_S [4; 5; 6]])].

Example dyn_example :
  exists sch, mk_schema dyn_file = Some sch /\
    file_arrs_wf dyn_file = true /\ no_static_structs dyn_file sch = true /\
    rust_encode 5 dyn_file sch "P" dyn_value
      = Ok [x01; x02; x01; x02; x01; x03; x00; x03; x04; x05; x06] /\
    rust_encoded_len 5 dyn_file sch "P" dyn_value = Some 11.
Proof. eexists. repeat (split; [reflexivity|]). reflexivity. Qed.

Example dyn_example_every_value fuel sch id v bs :
  mk_schema dyn_file = Some sch ->
  rust_encode fuel dyn_file sch id v = Ok bs ->
  rust_encoded_len fuel dyn_file sch id v = Some (len bs).
Proof.
  intros Hmk. destruct dyn_example as (sch' & Hmk' & Hwf & Hns & _).
  rewrite Hmk in Hmk'. injection Hmk' as <-.
  apply rust_encode_len_dynamic_structs; try assumption; reflexivity.
Qed.

(** Where the model's [encode] and [encoded_len] part ways.
    A struct with a constant-count array has a static size in the schema, so the packet
    that embeds it adds [16 / 8] without looking at the value; [encode] writes the
    elements it is given.  A list of three elements is not a value of the Rust type
    [[u8; 2]], so this is an ill-typed input of the MODEL, not an execution of the
    generated code: it is the reason [static_law] is a premise of [rust_encode_len]. *)
Definition st_file : file :=
  mkFile LittleEndian
    [DStruct "S" [] [lfld (Array "a" (Some 8) None None (Some 2))] None;
     DPacket "P" [] [lfld (Typedef "s" "S")] None].
Definition st_value (l : list value) : value := VObj [("s", VObj [("a", VList l)])].

Example static_array_ill_typed :
  exists sch, mk_schema st_file = Some sch /\
    rust_encode 5 st_file sch "P" (st_value [VNum 1; VNum 2; VNum 3]) = Ok [x01; x02; x03] /\
    rust_encoded_len 5 st_file sch "P" (st_value [VNum 1; VNum 2; VNum 3]) = Some 2 /\
    rust_encode 5 st_file sch "P" (st_value [VNum 1; VNum 2]) = Ok [x01; x02] /\
    rust_encoded_len 5 st_file sch "P" (st_value [VNum 1; VNum 2]) = Some 2.
Proof. eexists. repeat (split; [reflexivity|]). reflexivity. Qed.

Print Assumptions enc_fields_len.
Print Assumptions rust_encode_len.
Print Assumptions rust_encode_len_rec_free.
Print Assumptions rust_encode_len_root.
Print Assumptions rust_encode_len_real_schema.
Print Assumptions rust_encode_len_dynamic_structs.
Print Assumptions len_example_every_value.
Print Assumptions dyn_example_every_value.
