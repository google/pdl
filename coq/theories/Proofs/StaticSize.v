(** C16 on the bit-field fragment: the constant size the schema computes for a
    declaration is exactly the number of bits every reference encoding occupies.
    Both sides are computed in closed form ([frag_bits]): the reference's length for
    every schema, the schema's sum for every schema that is right about the enums it
    knows (the final schema, and each of the partial schemas [mk_schema] annotates
    against). *)
From Coq Require Import NArith List String Bool Lia.
From PDL Require Import Lang.Ast Lang.Sexp Analyzer.Schema Rust.Enum Sem.RefEncode Proofs.EncodeEqns Proofs.BitfieldEncode.
Import ListNotations.
Open Scope N_scope.

Lemma size_add_static_inv x y m :
  size_add x y = Some (SStatic m) ->
  exists a b, x = SStatic a /\ y = SStatic b /\ m = a + b /\ fits_usize (a + b) = true.
Proof.
  destruct x as [x| |], y as [y| |]; cbn [size_add]; try discriminate.
  destruct (fits_usize (x + y)) eqn:E; [|discriminate]. intros [= <-]. eauto 6.
Qed.

Lemma annotate_fields_step s d f rest a p r :
  is_payload f = false ->
  annotate_fields s d (f :: rest) a p = Some r ->
  exists fsz a',
    field_size s d f = Some fsz
    /\ size_add a (match next_padding rest with Some q => SStatic q | None => fsz end) = Some a'
    /\ annotate_fields s d rest a' p = Some r.
Proof.
  cbn [annotate_fields]. intros ->. destruct (field_size s d f) as [fsz|]; [|discriminate].
  destruct (match next_padding rest with Some q => fits_usize q | None => true end); [|discriminate].
  destruct (size_add a _) as [a'|] eqn:Ea; [|discriminate]. eauto.
Qed.

Lemma annotate_fields_payload_step s d f rest a p r :
  is_payload f = true ->
  annotate_fields s d (f :: rest) a p = Some r ->
  exists fsz, field_size s d f = Some fsz /\ annotate_fields s d rest a fsz = Some r.
Proof.
  cbn [annotate_fields]. intros ->. destruct (field_size s d f) as [fsz|]; [|discriminate]. eauto.
Qed.

Section Frag.
  Variable fl : file.
  Variable sch : schema.
  Variable rec : string -> value -> option (list seg).
  Variable d : decl.
  Variable all_fields : list field.
  Variable obj : list (string * value).
  Variable payload : list seg.
  Hypothesis Hsch : schema_knows_enums fl sch.

  Definition frag_width (f : field) : N :=
    match f_desc f with
    | Scalar _ w | FixedScalar w _ | Reserved w => w
    | Typedef _ tid | FixedEnum tid _ =>
        match lookup_decl fl tid with Some (DEnum _ _ w) => w | _ => 0 end
    | _ => 0
    end.

  Fixpoint frag_bits (fs : list field) : N :=
    match fs with [] => 0 | f :: rest => frag_width f + frag_bits rest end.

  Lemma next_padding_fragment rest : forallb (bf_field fl) rest = true -> next_padding rest = None.
  Proof.
    destruct rest as [|g rest]; [reflexivity|]. cbn [forallb next_padding]. intros H.
    apply andb_prop in H. destruct H as [Hg _]. unfold bf_field in Hg.
    destruct (f_cond g); [discriminate|]. now destruct (f_desc g).
  Qed.

  Lemma ref_bitfield_width cs f v w :
    bf_field fl f = true ->
    ref_bitfield fl rec d all_fields cs obj payload f = Some (v, w) -> w = frag_width f.
  Proof.
    unfold bf_field, ref_bitfield, frag_width, enum_tags. destruct (f_cond f); [discriminate|].
    destruct (f_desc f); try discriminate; intros Hbf H.
    - now injection H.
    - destruct (lookup_decl fl enum_id) as [[]|]; try discriminate.
      destruct (enum_tag_value tags tag_id); [|discriminate]. now injection H.
    - now injection H.
    - destruct (find_constraint cs id) as [c|].
      + destruct (constraint_N fl all_fields c); [|discriminate]. now injection H.
      + destruct (assoc id obj) as [[]|]; try discriminate. now injection H.
    - destruct (lookup_decl fl type_id) as [[]|]; try discriminate.
      destruct (find_constraint cs id) as [c|].
      + destruct (constraint_N fl all_fields c); [|discriminate]. now injection H.
      + destruct (assoc id obj) as [[]|]; try discriminate.
        destruct (spec_enum_of_N tags width n); [|discriminate]. now injection H.
  Qed.

  (** one bit-field: the group closes (its bytes are emitted) or stays open *)
  Lemma ref_step_bf cs f rest acc bits ss :
    bf_field fl f = true ->
    ref_enc_fields fl rec d all_fields cs obj payload (f :: rest) acc bits = Some ss ->
    exists acc' bits' ss',
      ref_enc_fields fl rec d all_fields cs obj payload rest acc' bits' = Some ss'
      /\ 8 * seg_len ss + bits' = 8 * seg_len ss' + bits + frag_width f.
  Proof.
    intros Hf. rewrite ref_enc_fields_cons, (bf_cond fl f Hf), (bf_is_bitfield fl f Hf).
    destruct (ref_bitfield fl rec d all_fields cs obj payload f) as [[v w]|] eqn:Erb; [|discriminate].
    rewrite <- (ref_bitfield_width cs f v w Hf Erb).
    destruct (v <? 2 ^ w); [|discriminate].
    destruct ((bits + w) mod 8 =? 0) eqn:Em.
    - unfold sapp. destruct (ref_enc_fields fl rec d all_fields cs obj payload rest 0 0) as [b|] eqn:Eb; [|discriminate].
      intros [= <-]. exists 0, 0, b. split; [exact Eb|]. apply N.eqb_eq in Em.
      change (?s :: b) with ([s] ++ b)%list. rewrite seg_len_app, N.mul_add_distr_l, (seg_len_int_bits _ _ Em). lia.
    - intros H. exists (acc + v * 2 ^ bits), (bits + w), ss. split; [exact H | lia].
  Qed.

  Theorem ref_fragment_bits cs : forall fs acc bits ss,
    forallb (bf_field fl) fs = true ->
    ref_enc_fields fl rec d all_fields cs obj payload fs acc bits = Some ss ->
    8 * seg_len ss = bits + frag_bits fs.
  Proof.
    induction fs as [|f rest IH]; intros acc bits ss Hbf H; cbn [frag_bits].
    - cbn [ref_enc_fields] in H. destruct (bits =? 0) eqn:E; [|discriminate].
      injection H as <-. apply N.eqb_eq in E. change (seg_len []) with 0. lia.
    - cbn [forallb] in Hbf. apply andb_prop in Hbf. destruct Hbf as [Hf Hrest].
      destruct (ref_step_bf cs f rest acc bits ss Hf H) as (acc' & bits' & ss' & H' & E).
      pose proof (IH _ _ _ Hrest H'). lia.
  Qed.

  Lemma field_size_bf s d' f :
    bf_field fl f = true ->
    field_size s d' f = Some (SStatic (frag_width f))
    \/ exists tid i tags, lookup_decl fl tid = Some (DEnum i tags (frag_width f))
                          /\ field_size s d' f = type_total s tid.
  Proof.
    unfold bf_field, field_size, frag_width. destruct (f_cond f); [discriminate|].
    destruct (f_desc f) as [ | | | | | | | |tid tg| | | | |id tid| ]; try discriminate; auto;
      (destruct (lookup_decl fl tid) as [[]|] eqn:El; try discriminate; intros _; right; eauto 6).
  Qed.

  Lemma field_size_fragment f :
    bf_field fl f = true -> field_size sch d f = Some (SStatic (frag_width f)).
  Proof.
    intros Hf. destruct (field_size_bf sch d f Hf) as [E|(tid & i & tags & Hl & ->)]; [exact E|].
    exact (schema_enum_total _ _ _ _ _ _ Hsch Hl).
  Qed.

  (** a schema that may not know every enum yet, but is right about those it knows *)
  Definition schema_agrees_enums (s : schema) : Prop :=
    forall tid i tags w sz,
      lookup_decl fl tid = Some (DEnum i tags w) -> type_total s tid = Some sz -> sz = SStatic w.

  Lemma knows_agrees : schema_agrees_enums sch.
  Proof.
    intros tid i tags w sz Hl Ht. rewrite (Hsch tid tags w) in Ht by (right; eauto). now injection Ht.
  Qed.

  Lemma field_size_agrees s d' f sz :
    schema_agrees_enums s ->
    bf_field fl f = true -> field_size s d' f = Some sz -> sz = SStatic (frag_width f).
  Proof.
    intros Hag Hf H. destruct (field_size_bf s d' f Hf) as [E|(tid & i & tags & Hl & E)]; rewrite E in H.
    - now injection H.
    - exact (Hag _ _ _ _ _ Hl H).
  Qed.

  Lemma annotate_fields_agrees s d' :
    schema_agrees_enums s ->
    forall fs a p dsz psz,
      forallb (bf_field fl) fs = true ->
      annotate_fields s d' fs (SStatic a) p = Some (dsz, psz) ->
      dsz = SStatic (a + frag_bits fs) /\ psz = p
      /\ (fits_usize a = true -> fits_usize (a + frag_bits fs) = true).
  Proof.
    intros Hag. induction fs as [|f rest IH]; intros a p dsz psz Hbf H; cbn [frag_bits].
    - injection H as <- <-. rewrite N.add_0_r. auto.
    - cbn [forallb] in Hbf. apply andb_prop in Hbf. destruct Hbf as [Hf Hrest].
      destruct (annotate_fields_step _ _ _ _ _ _ _ (bf_not_payload fl f Hf) H) as (fsz & a' & Hfs & Ha & H').
      rewrite (next_padding_fragment rest Hrest), (field_size_agrees _ _ _ _ Hag Hf Hfs) in Ha.
      cbn [size_add] in Ha. destruct (fits_usize (a + frag_width f)) eqn:Efit; [|discriminate].
      injection Ha as <-. rewrite N.add_assoc. destruct (IH _ _ _ _ Hrest H') as (-> & -> & Hfits). auto.
  Qed.

  Theorem schema_fragment_bits fs a p dsz psz :
    forallb (bf_field fl) fs = true ->
    annotate_fields sch d fs (SStatic a) p = Some (dsz, psz) ->
    dsz = SStatic (a + frag_bits fs) /\ psz = p.
  Proof.
    intros Hbf H. destruct (annotate_fields_agrees sch d knows_agrees fs a p dsz psz Hbf H) as (? & ? & _). auto.
  Qed.

  Theorem static_exact_fragment fs n psz ss :
    forallb (bf_field fl) fs = true ->
    annotate_fields sch d fs (SStatic 0) (SStatic 0) = Some (SStatic n, psz) ->
    ref_enc_fields fl rec d all_fields [] obj payload fs 0 0 = Some ss ->
    8 * seg_len ss = n.
  Proof.
    intros Hbf Ha Hr. destruct (schema_fragment_bits fs 0 _ _ _ Hbf Ha) as [[= ->] _].
    exact (ref_fragment_bits [] fs 0 0 ss Hbf Hr).
  Qed.
End Frag.
