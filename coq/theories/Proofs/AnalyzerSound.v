(** What acceptance by the analyzer model guarantees (the acceptance chain inverted pass by
    pass), when the two duplicate-identifier passes are silent, and that lookups by
    identifier do not depend on the order of the declarations. *)
From Coq Require Import NArith List String Permutation.
From PDL Require Import Lang.Ast Analyzer.Desugar Analyzer.Passes Analyzer.Analyze
     Proofs.ListFacts.
Import ListNotations.
Open Scope N_scope.

Lemma mem_In s l : mem s l = true <-> In s l.
Proof.
  unfold mem. rewrite existsb_exists. split.
  - intros [x [Hx He]]. apply String.eqb_eq in He. now subst.
  - intros H. exists s. split; [exact H | apply String.eqb_refl].
Qed.

(** [scope_new_go] (over declarations, E1) and
    [check_field_identifiers_go] (over fields, E11) are one and the same loop, instantiated
    with the function that gives an item its identifier and with the code to report: they
    ARE [dup_go decl_id 1] and [dup_go field_id 11], by conversion, and likewise for the
    identifier lists. *)
Section Dup.
  Context {X : Type} (key : X -> option string) (code : N).

  Fixpoint dup_go (l : list X) (seen : list string) : diags :=
    match l with
    | [] => []
    | x :: rest =>
        match key x with
        | Some id => ((if mem id seen then [code] else []) ++ dup_go rest (id :: seen))%list
        | None => dup_go rest seen
        end
    end.

  Fixpoint keys (l : list X) : list string :=
    match l with
    | [] => []
    | x :: rest => match key x with Some i => i :: keys rest | None => keys rest end
    end.

  Lemma dup_go_spec l : forall seen,
    dup_go l seen = [] <-> (NoDup (keys l) /\ forall i, In i (keys l) -> ~ In i seen).
  Proof.
    induction l as [|x rest IH]; intros seen; cbn [dup_go keys].
    - split; [intros _; split; [constructor | intros i []] | reflexivity].
    - destruct (key x) as [id|]; [|apply IH].
      destruct (mem id seen) eqn:Em.
      + split; [discriminate|]. intros [_ H]. destruct (H id (or_introl eq_refl)). now apply mem_In.
      + cbn [app]. rewrite IH. split.
        * intros [Hnd Hdis]. split.
          -- constructor; [|exact Hnd]. intros Hin. apply (Hdis id Hin). left; reflexivity.
          -- intros i [->|Hi]; [intros Hin; apply mem_In in Hin; congruence|].
             intros Hin. apply (Hdis i Hi). right; exact Hin.
        * intros [Hnd Hdis]. inversion Hnd as [|? ? Hnotin Hnd']; subst. split; [exact Hnd'|].
          intros i Hi [<-|Hin]; [contradiction|]. apply (Hdis i (or_intror Hi) Hin).
  Qed.

  Lemma dup_go_nil l : dup_go l [] = [] <-> NoDup (keys l).
  Proof. rewrite dup_go_spec. split; [tauto|]. intros H; split; [exact H | intros i _ []]. Qed.

  Lemma dup_go_codes l : forall seen x, In x (dup_go l seen) -> x = code.
  Proof.
    induction l as [|a rest IH]; intros seen x; cbn [dup_go]; [intros []|].
    destruct (key a); [|apply IH]. intros Hin. apply in_app_or in Hin as [Hin|Hin]; [|eapply IH; exact Hin].
    destruct (mem s seen); [destruct Hin as [<-|[]]; reflexivity | destruct Hin].
  Qed.
End Dup.

Fixpoint decl_id_list (ds : list decl) : list string :=
  match ds with
  | [] => []
  | d :: rest => match decl_id d with Some i => i :: decl_id_list rest | None => decl_id_list rest end
  end.

Theorem scope_new_nodup file : scope_new file = [] <-> NoDup (decl_id_list (f_decls file)).
Proof. exact (dup_go_nil decl_id 1 (f_decls file)). Qed.

Theorem scope_new_detects file : ~ NoDup (decl_id_list (f_decls file)) -> In 1 (scope_new file).
Proof.
  intros Hn. destruct (scope_new file) as [|c cs] eqn:E; [destruct (Hn (proj1 (scope_new_nodup file) E))|].
  left. apply (dup_go_codes decl_id 1 (f_decls file) []).
  change (In c (scope_new file)). rewrite E. left; reflexivity.
Qed.

Fixpoint field_id_list (fs : list field) : list string :=
  match fs with
  | [] => []
  | f :: rest => match field_id f with Some i => i :: field_id_list rest | None => field_id_list rest end
  end.

Lemma per_decl_nil f fl : per_decl f fl = [] <-> forall d, In d (f_decls fl) -> f d = [].
Proof. apply flat_map_nil. Qed.

Theorem check_field_identifiers_nodup file :
  check_field_identifiers file = [] <->
  forall d, In d (f_decls file) -> NoDup (field_id_list (decl_fields d)).
Proof.
  unfold check_field_identifiers. rewrite per_decl_nil. split; intros H d Hd.
  - exact (proj1 (dup_go_nil field_id 11 _) (H d Hd)).
  - exact (proj2 (dup_go_nil field_id 11 _) (H d Hd)).
Qed.

(** passing a [diagnostics.err_or(())?] means there were no diagnostics *)
Lemma err_or_accepted {B} ds (k : unit -> ares B) r :
  abind (err_or ds) k = Accepted r -> ds = [] /\ k tt = Accepted r.
Proof. destruct ds; [auto | discriminate]. Qed.

Lemma err_or_p_accepted {B} p (k : unit -> ares B) r :
  abind (err_or_p p) k = Accepted r -> p = POk [] /\ k tt = Accepted r.
Proof. destruct p as [[|]|]; [auto | discriminate ..]. Qed.

Lemma no_diag_accepted {A B} (p : pres A) (k : A -> ares B) r :
  abind (no_diag p) k = Accepted r -> exists a, p = POk a /\ k a = Accepted r.
Proof. destruct p as [a|]; [eauto | discriminate]. Qed.

(** the files and results of the passes behind an acceptance; [sorted] is the file as
    reordered by [check_decl_identifiers], the one the checks and [inline_groups] run on *)
Record accepted_facts (file sorted inlined af : file) (sch : aschema) : Prop := {
  acc_scope : scope_new file = [];
  acc_sorted : check_decl_identifiers file = POk (inr sorted);
  acc_field_ids : check_field_identifiers sorted = [];
  acc_enums : check_enum_declarations sorted = [];
  acc_sizes : check_size_fields sorted = [];
  acc_payloads : check_payload_fields sorted = [];
  acc_arrays : check_array_fields sorted = [];
  acc_paddings : check_padding_fields sorted = [];
  acc_inlined : inline_groups_r sorted = POk inlined;
  acc_desugared : desugar_flags_r inlined = POk af;
  acc_scope_af : scope_new af = [];
  acc_schema : schema_new af = POk sch
}.

Theorem accepted_inv file af sch :
  analyze_with_schema file = Accepted (af, sch) ->
  exists sorted inlined, accepted_facts file sorted inlined af sch.
Proof.
  (* one step per line of [analyze] (analyzer.rs 1910-1930) *)
  unfold analyze_with_schema. intros H.
  apply err_or_accepted in H as [Hsc0 H].                                (* 1910 *)
  destruct (check_decl_identifiers file) as [[ds|sorted]|s] eqn:Hsorted; try discriminate H. cbn [abind] in H.
  exists sorted.
  destruct (scope_new sorted); [|discriminate H]. cbn [abind] in H.      (* 1912 *)
  apply err_or_accepted in H as [Hfid H].
  apply err_or_accepted in H as [Henum H].                               (* 1914 *)
  apply err_or_accepted in H as [Hsize H].
  apply err_or_accepted in H as [_ H].
  apply err_or_accepted in H as [Hpay H].
  apply err_or_accepted in H as [Harr H].
  apply err_or_accepted in H as [Hpad H].                                (* 1919 *)
  apply err_or_accepted in H as [_ H].
  apply err_or_p_accepted in H as [_ H].
  apply err_or_p_accepted in H as [_ H].
  apply no_diag_accepted in H as (inlined & Hinl & H).                   (* 1923 *)
  apply no_diag_accepted in H as (af' & Hdes & H).
  apply err_or_accepted in H as [Hscope H].
  apply err_or_p_accepted in H as [_ H].
  apply no_diag_accepted in H as (sch' & Hsch & H).                      (* 1927 *)
  apply err_or_p_accepted in H as [_ H].
  apply err_or_p_accepted in H as [_ H].
  injection H as <- <-. exists inlined. constructor; assumption || reflexivity.
Qed.

Theorem accepted_implies file af sch :
  analyze_with_schema file = Accepted (af, sch) ->
  NoDup (decl_id_list (f_decls file))
  /\ exists sorted,
      check_decl_identifiers file = POk (inr sorted)
      /\ (forall d, In d (f_decls sorted) -> NoDup (field_id_list (decl_fields d)))
      /\ check_enum_declarations sorted = []
      /\ check_size_fields sorted = []
      /\ check_payload_fields sorted = []
      /\ check_array_fields sorted = []
      /\ check_padding_fields sorted = [].
Proof.
  intros H. destruct (accepted_inv file af sch H) as (sorted & inlined & [E1 Hs E11 He Hz Hp Ha Hd _ _ _ _]).
  split; [now apply scope_new_nodup|]. exists sorted.
  split; [exact Hs|]. split; [now apply check_field_identifiers_nodup|]. auto 6.
Qed.

(** ** Lookups by identifier do not depend on the order of declarations (the basis of
    C09's "forward references are legal, order is irrelevant") *)

Lemma in_decl_id_list d ds i : In d ds -> decl_id d = Some i -> In i (decl_id_list ds).
Proof.
  induction ds as [|x rest IH]; intros Hin Hid; [destruct Hin|].
  cbn [decl_id_list]. destruct Hin as [->|Hin].
  - rewrite Hid. left; reflexivity.
  - destruct (decl_id x); [right|]; now apply IH.
Qed.

Lemma unique_by_id ds : NoDup (decl_id_list ds) ->
  forall x y i, In x ds -> In y ds -> decl_id x = Some i -> decl_id y = Some i -> x = y.
Proof.
  induction ds as [|d rest IH]; intros Hnd x y i Hx Hy Hix Hiy; [destruct Hx|].
  cbn [decl_id_list] in Hnd.
  destruct Hx as [<-|Hx]; destruct Hy as [<-|Hy]; try reflexivity.
  - rewrite Hix in Hnd. inversion Hnd as [|? ? Hnotin _]; subst.
    exfalso. apply Hnotin. eapply in_decl_id_list; eassumption.
  - rewrite Hiy in Hnd. inversion Hnd as [|? ? Hnotin _]; subst.
    exfalso. apply Hnotin. eapply in_decl_id_list; eassumption.
  - destruct (decl_id d); [inversion Hnd; subst|]; eapply IH; eassumption.
Qed.

Lemma lookup_decl_complete fl d i :
  NoDup (decl_id_list (f_decls fl)) -> In d (f_decls fl) -> decl_id d = Some i ->
  lookup_decl fl i = Some d.
Proof.
  intros Hnd Hin Hid. apply find_unique; [now apply in_rev in Hin | now apply has_id_spec|].
  intros y Hy Hfy. apply in_rev in Hy. apply has_id_spec in Hfy.
  exact (unique_by_id _ Hnd y d i Hy Hin Hfy Hid).
Qed.

Theorem lookup_decl_order_independent e e' ds ds' id :
  NoDup (decl_id_list ds) -> Permutation ds ds' ->
  lookup_decl (mkFile e ds) id = lookup_decl (mkFile e' ds') id.
Proof.
  intros Hnd Hp. unfold lookup_decl. cbn [f_decls]. apply find_perm.
  - now rewrite <- !Permutation_rev.
  - intros x y Hx Hy Hfx Hfy. apply in_rev in Hx, Hy. unfold has_id in Hfx, Hfy.
    destruct (decl_id x) as [ix|] eqn:Eix; [|discriminate].
    destruct (decl_id y) as [iy|] eqn:Eiy; [|discriminate].
    apply String.eqb_eq in Hfx, Hfy. subst ix iy. eapply unique_by_id; eassumption.
Qed.
