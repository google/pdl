(** The decoder model (Rust/Decode.v) one step at a time.  [dec_fields] threads the run-time
    state and the pending chunk through the field list; [dec_field] is what one field does to
    them, so that a property of the loop is a property of the step plus a short induction
    ([dec_fields_cons]).  In the same way [add_array_field] is cut where element width and
    shape are known ([arr_work], [arr_elems]). *)
From Coq Require Import NArith List String Bool Lia.
From Coq Require Import Strings.Byte.
From PDL Require Import Base.Bits Base.Outcome Lang.Ast Lang.Sexp Analyzer.Schema Rust.Enum
     Sem.RefEncode Rust.Decode.
Import ListNotations.
Open Scope N_scope.

Lemma bind_ok_inv {E A B} (x : outcome E A) (f : A -> outcome E B) b :
  bind x f = Ok b -> exists a, x = Ok a /\ f a = Ok b.
Proof. destruct x as [a| | |]; cbn [bind]; intros H; try discriminate. exists a. split; [reflexivity|exact H]. Qed.

(** One step along the successful path of [H : ... = Ok _].  A head [bind x f] is split
    ([bind_ok_inv]) into [a], [E : x = Ok a] and [H : f a = Ok _]; a head [match] or [if] has
    its scrutinee destructed, with an equation [E] unless it is a variable, and the failing
    cases are dropped.  The names are fresh: [a0], [E0], [E1] .. on later steps. *)
Ltac ok_step H :=
  match type of H with
  | bind _ _ = Ok _ =>
      let a := fresh "a" in let E := fresh "E" in
      apply bind_ok_inv in H; destruct H as [a [E H]]; cbv beta in H
  | match ?x with _ => _ end = Ok _ =>
      tryif is_var x then (destruct x; try discriminate H)
      else (let E := fresh "E" in destruct x eqn:E; try discriminate H)
  end.

Lemma len_skipn {A} n (sp : list A) : len (skipn (N.to_nat n) sp) = len sp - n.
Proof. unfold len. rewrite skipn_length. lia. Qed.

Lemma of_E_lt e bs : of_E e bs < 256 ^ N.of_nat (List.length bs).
Proof.
  destruct e; cbn [of_E]; [apply of_le_lt|].
  unfold of_be. rewrite <- (rev_length bs). apply of_le_lt.
Qed.

Lemma get_uint_ok e w sp x sp' :
  get_uint e w sp = Ok (x, sp') ->
  w / 8 <= len sp /\ x = of_E e (firstn (N.to_nat (w / 8)) sp) /\ sp' = skipn (N.to_nat (w / 8)) sp.
Proof.
  unfold get_uint. destruct (len sp <? w / 8) eqn:Hl; [discriminate|]. intros H.
  inversion H. apply N.ltb_ge in Hl. auto.
Qed.

Section Steps.
  Variable oc : bool.
  Variable fl : file.
  Variable sch : schema.
  Variable rec : string -> list byte -> dres (value * list byte).
  Variable lf : nat.

  (** the branch of [dec_fields] that completes a chunk of [shift] bits *)
  Definition dec_chunk (d : decl) (st : dstate) (chunk : list (N * field)) (shift : N)
    : dres dstate :=
    let* _ := check_size (st_span st) (shift / 8) in
    match integer_width shift with
    | None => Panic GenAssert
    | Some ctw =>
        if is_single_reserved chunk then
          let* sp' := advance (shift / 8) (st_span st) in
          Ok (set_span st sp')
        else
          let* (cv, sp') := get_uint (E fl) shift (st_span st) in
          chunk_fields fl sch (match chunk with [_] => true | _ => false end)
                       cv ctw (shift / 8) (set_span st sp') d chunk
    end.

  Definition dec_other (d : decl) (pad : option N) (st : dstate) (fd : fdesc) (shift : N)
    : dres dstate :=
    match fd with
    | Padding _ => Ok st
    | Array id w t _ sz => add_array_field oc fl sch rec lf d st id w t sz pad
    | Typedef id tid => add_typedef_field fl sch rec st id tid shift
    | Payload m => add_payload_field sch d st m shift
    | Body => add_payload_field sch d st None shift
    | _ => Panic GenTodo
    end.

  Definition dec_field (d : decl) (pad : option N) (f : field) (st : dstate)
             (chunk : list (N * field)) (shift : N) : dres (dstate * list (N * field) * N) :=
    match f_cond f with
    | Some c => let* st' := add_optional_field fl rec st f c in Ok (st', chunk, shift)
    | None =>
        if is_bitfield fl f then
          match field_size sch d f with
          | Some (SStatic w) =>
              if (shift + w) mod 8 =? 0 then
                let* st' := dec_chunk d st (chunk ++ [(shift, f)]) (shift + w) in Ok (st', [], 0)
              else Ok (st, (chunk ++ [(shift, f)])%list, shift + w)
          | _ => Panic UnwrapFail
          end
        else let* st' := dec_other d pad st (f_desc f) shift in Ok (st', chunk, shift)
    end.

  Lemma dec_fields_cons d f rest st chunk shift :
    dec_fields oc fl sch rec lf d (f :: rest) st chunk shift =
    let* (st', chunk', shift') := dec_field d (next_padding rest) f st chunk shift in
    dec_fields oc fl sch rec lf d rest st' chunk' shift'.
  Proof.
    cbn [dec_fields]. unfold dec_field.
    destruct (f_cond f) as [c|]; [destruct (add_optional_field _ _ _ _ _); reflexivity|].
    destruct (is_bitfield fl f).
    - destruct (field_size sch d f) as [[w| |]|]; try reflexivity.
      destruct ((shift + w) mod 8 =? 0); [|reflexivity]. unfold dec_chunk.
      destruct (check_size _ _); try reflexivity. cbn [bind].
      destruct (integer_width _); [|reflexivity].
      destruct (is_single_reserved _); [destruct (advance _ _); reflexivity|].
      destruct (get_uint _ _ _) as [[cv sp']| | |]; try reflexivity. cbn [bind].
      destruct (chunk_fields _ _ _ _ _ _ _ _ _); reflexivity.
    - destruct (f_desc f); try reflexivity; cbn [dec_other];
        match goal with |- bind ?x _ = _ => destruct x; reflexivity end.
  Qed.

  Lemma dec_fields_bitfield d f rest st chunk shift w :
    f_cond f = None -> is_bitfield fl f = true -> field_size sch d f = Some (SStatic w) ->
    dec_fields oc fl sch rec lf d (f :: rest) st chunk shift =
    if (shift + w) mod 8 =? 0
    then let* st' := dec_chunk d st (chunk ++ [(shift, f)]) (shift + w) in
         dec_fields oc fl sch rec lf d rest st' [] 0
    else dec_fields oc fl sch rec lf d rest st (chunk ++ [(shift, f)]) (shift + w).
  Proof.
    intros Hc Hb Hs. rewrite dec_fields_cons. unfold dec_field. rewrite Hc, Hb, Hs.
    destruct ((shift + w) mod 8 =? 0); [|reflexivity]. destruct (dec_chunk _ _ _ _); reflexivity.
  Qed.

  Lemma dec_fields_array d f rest st chunk shift id w t m sz :
    f_cond f = None -> f_desc f = Array id w t m sz ->
    dec_fields oc fl sch rec lf d (f :: rest) st chunk shift =
    let* st' := add_array_field oc fl sch rec lf d st id w t sz (next_padding rest) in
    dec_fields oc fl sch rec lf d rest st' chunk shift.
  Proof.
    intros Hc Hd. rewrite dec_fields_cons. unfold dec_field, is_bitfield. rewrite Hc, Hd. cbn [dec_other].
    destruct (add_array_field _ _ _ _ _ _ _ _ _ _ _ _); reflexivity.
  Qed.

  (** the field of declared width [w] at [sh], held in a Rust integer of [vtw] bits, out
      of a chunk value held in one of [ctw] bits *)
  Definition chunk_value (single : bool) (cv ctw sh w vtw : N) : N :=
    let v0 := N.shiftr cv sh in
    let v1 := if negb single && (w <? vtw) then N.land v0 (N.ones w) else v0 in
    if vtw <? ctw then v1 mod 2 ^ vtw else v1.

  Definition bind_field (st : dstate) (f : field) (v : N) : dres dstate :=
    match f_desc f with
    | Scalar id _ => Ok (add_val (add_local st id v) id (VNum v))
    | Flag id _ => Ok (add_local st id v)
    | FixedEnum eid tid =>
        match enum_tags fl eid with
        | Some (tags, _) =>
            match enum_tag_value tags tid with
            | Some tv => if v =? tv then Ok st else Err FixedValueError
            | None => Panic GenTodo
            end
        | None => Panic GenTodo
        end
    | FixedScalar _ value => if v =? value then Ok st else Err FixedValueError
    | Typedef id tid =>
        let* _ := enum_check fl tid v in
        Ok (add_val (add_local st id v) id (VNum v))
    | Reserved _ => Ok st
    | Size fid _ => Ok (add_local st (size_ident fid) v)
    | ElementSize fid _ => Ok (add_local st (esize_ident fid) v)
    | Count fid _ => Ok (add_local st (count_ident fid) v)
    | _ => Panic GenTodo
    end.

  Lemma chunk_field_eq single cv ctw size st d sh f w vtw :
    field_size sch d f = Some (SStatic w) -> integer_width w = Some vtw ->
    chunk_field fl sch single cv ctw size st d (sh, f)
    = bind_field st f (chunk_value single cv ctw sh w vtw).
  Proof. intros Hs Hw. unfold chunk_field. rewrite Hs, Hw. reflexivity. Qed.

  Definition admits (f : field) (v : N) : Prop :=
    match f_desc f with
    | Scalar _ _ | Flag _ _ | Reserved _ | Size _ _ | ElementSize _ _ | Count _ _ => True
    | FixedScalar _ value => v = value
    | FixedEnum eid tid =>
        exists tags ew, enum_tags fl eid = Some (tags, ew) /\ enum_tag_value tags tid = Some v
    | Typedef _ tid => enum_check fl tid v = Ok tt
    | _ => False
    end.

  Definition field_local (f : field) (v : N) : list (string * N) :=
    match f_desc f with
    | Scalar id _ | Typedef id _ | Flag id _ => [(id, v)]
    | Size fid _ => [(size_ident fid, v)]
    | ElementSize fid _ => [(esize_ident fid, v)]
    | Count fid _ => [(count_ident fid, v)]
    | _ => []
    end.

  Definition field_val (f : field) (v : N) : list (string * value) :=
    match f_desc f with
    | Scalar id _ | Typedef id _ => [(id, VNum v)]
    | _ => []
    end.

  Definition put_field (st : dstate) (f : field) (v : N) : dstate :=
    mkDst (st_span st) (field_local f v ++ st_locals st) (st_vals st ++ field_val f v) (st_payload st).

  Lemma bind_field_ok st f v st' :
    bind_field st f v = Ok st' <-> admits f v /\ st' = put_field st f v.
  Proof.
    unfold bind_field, admits, put_field, field_local, field_val, add_val, add_local.
    destruct st as [sp L vals pl]; cbn [st_span st_locals st_vals st_payload]. split.
    - destruct (f_desc f); cbn [app]; rewrite ?app_nil_r; intros H; try discriminate H;
        try (injection H as <-; split; [exact I | reflexivity]).
      + (* FixedScalar *)
        destruct (v =? value) eqn:Ev; [|discriminate H]. injection H as <-.
        split; [apply N.eqb_eq, Ev | reflexivity].
      + (* FixedEnum *)
        destruct (enum_tags fl enum_id) as [[tags ew]|]; [|discriminate H].
        destruct (enum_tag_value tags tag_id) as [tv|] eqn:Etv; [|discriminate H].
        destruct (v =? tv) eqn:Ev; [|discriminate H]. injection H as <-. apply N.eqb_eq in Ev. subst tv.
        split; [exists tags, ew; split; [reflexivity | exact Etv] | reflexivity].
      + (* Typedef *)
        destruct (enum_check fl type_id v) as [[]| | |]; try discriminate H. injection H as <-.
        split; reflexivity.
    - intros [Ha ->]. destruct (f_desc f); cbn [app]; rewrite ?app_nil_r; try contradiction; try reflexivity.
      + subst value. now rewrite N.eqb_refl.
      + destruct Ha as (tags & ew & -> & ->). now rewrite N.eqb_refl.
      + now rewrite Ha.
  Qed.

  Lemma chunk_field_ok single cv ctw size st d sh f st' :
    chunk_field fl sch single cv ctw size st d (sh, f) = Ok st' ->
    exists w vtw,
      field_size sch d f = Some (SStatic w) /\ integer_width w = Some vtw /\
      admits f (chunk_value single cv ctw sh w vtw) /\
      st' = put_field st f (chunk_value single cv ctw sh w vtw).
  Proof.
    unfold chunk_field. destruct (field_size sch d f) as [[w| |]|]; try discriminate.
    destruct (integer_width w) as [vtw|] eqn:Hw; [|discriminate]. intros H.
    apply (bind_field_ok st f (chunk_value single cv ctw sh w vtw)) in H. destruct H.
    now exists w, vtw.
  Qed.

  Lemma chunk_field_span single cv ctw size d c st st' :
    chunk_field fl sch single cv ctw size st d c = Ok st' -> st_span st' = st_span st.
  Proof.
    destruct c as [sh f]. intros H. apply chunk_field_ok in H.
    destruct H as (w & vtw & _ & _ & _ & ->). reflexivity.
  Qed.

  Lemma chunk_fields_span single cv ctw size d cs : forall st st',
    chunk_fields fl sch single cv ctw size st d cs = Ok st' -> st_span st' = st_span st.
  Proof.
    induction cs as [|c cs IH]; intros st st' H; cbn [chunk_fields] in H.
    - inversion H; reflexivity.
    - ok_step H. rewrite (IH _ _ H). eapply chunk_field_span; exact E.
  Qed.

  Lemma dec_chunk_span d st chunk shift st' :
    dec_chunk d st chunk shift = Ok st' ->
    (len (st_span st) <? shift / 8) = false /\
    st_span st' = skipn (N.to_nat (shift / 8)) (st_span st).
  Proof.
    unfold dec_chunk, check_size, advance, get_uint. intros H.
    destruct (len (st_span st) <? shift / 8); [discriminate|]. cbn [bind] in H.
    split; [reflexivity|]. repeat ok_step H.
    - inversion H; reflexivity.
    - apply chunk_fields_span in H. exact H.
  Qed.

  (** The inner [match ew, shape] of [add_array_field] and its padding step, as functions of
      the element width and the shape; that they compose to the model is
      [DecodeSafeArrays.add_array_field_eq], by [reflexivity]. *)
  Definition arr_elems (pe : list byte -> dres (value * list byte)) (st : dstate)
             (ew : elem_width) (shape : arr_shape) (work : list byte)
    : dres (list value * list byte) :=
  match ew, shape with
  | EWUnknown, ShSize sf =>
      let* n := local st sf in
      let* _ := check_size work n in
      let* (h, t) := split_at n work in
      let* (vs, _) := loop_while pe lf h [] in Ok (vs, t)
  | EWUnknown, ShStatic n =>
      let* (vs, w') := loop_count pe lf n work [] in Ok (vs, w')
  | EWUnknown, ShCount cf =>
      let* n := local st cf in
      let* (vs, w') := loop_count pe lf n work [] in Ok (vs, w')
  | EWUnknown, ShUnknown =>
      let* (vs, w') := loop_while pe lf work [] in Ok (vs, w')
  | EWStatic e, ShStatic n =>
      let* _ := check_size work (n * e) in
      let* (vs, w') := loop_count pe lf n work [] in Ok (vs, w')
  | EWStatic e, ShCount cf =>
      let* n := local st cf in
      let* total := umul oc n e in
      let* _ := check_size work total in
      let* (vs, w') := loop_count pe lf n work [] in Ok (vs, w')
  | EWStatic e, (ShSize _ | ShUnknown) =>
      let* asz :=
        match shape with
        | ShSize sf =>
            let* n := local st sf in
            let* _ := check_size work n in Ok n
        | _ => Ok (len work)
        end in
      let* cnt :=
        if e =? 1 then Ok asz
        else if e =? 0 then Panic DivZero
        else if asz mod e =? 0 then Ok (asz / e) else Err ArraySizeError in
      let* (vs, w') := loop_count pe lf cnt work [] in Ok (vs, w')
  | EWDynamic esf, ShStatic n =>
      let* es := local st esf in
      let* asz := if n =? 1 then Ok es else umul oc n es in
      let* _ := check_size work asz in
      let* vs := chunks lf pe es n work in
      let* w' := slice_from asz work in
      if len vs =? n then Ok (vs, w') else Err UnwrapError
  | EWDynamic esf, ShCount cf =>
      let* es := local st esf in
      let* n := local st cf in
      let* total := umul oc n es in
      let* _ := check_size work total in
      let* vs := chunks lf pe es n work in
      let* total' := umul oc es n in
      let* w' := slice_from total' work in
      Ok (vs, w')
  | EWDynamic esf, (ShSize _ | ShUnknown) =>
      let* es := local st esf in
      let* asz :=
        match shape with
        | ShSize sf =>
            let* n := local st sf in
            let* _ := check_size work n in Ok n
        | _ => Ok (len work)
        end in
      if es =? 0 then Panic DivZero
      else if negb (asz mod es =? 0) then Err ArraySizeError
      else
        let* vs := chunks lf pe es (asz / es) work in
        let* w' := slice_from asz work in
        Ok (vs, w')
  end.

  Definition arr_work (st : dstate) (padding : option N)
    : dres (list byte * option (list byte) * bool) :=
    match padding with
    | Some pbits =>
        let* _ := check_size (st_span st) (pbits / 8) in
        let* (h, t) := split_at (pbits / 8) (st_span st) in
        Ok (h, Some t, true)
    | None => Ok (st_span st, None, false)
    end.

  Lemma add_array_field_ok d st id w t sz pad st' :
    add_array_field oc fl sch rec lf d st id w t sz pad = Ok st' ->
    exists ew shape work after padded vs work',
      arr_work st pad = Ok (work, after, padded) /\
      arr_elems (parse_element fl rec w t) st ew shape work = Ok (vs, work') /\
      st' = add_val (set_span st (match after with Some t => t | None => work' end)) id (VList vs).
  Proof.
    unfold add_array_field. intros H.
    apply bind_ok_inv in H. destruct H as [ew [_ H]]. cbv beta in H.
    (* forget how the shape is computed: the phases only pass it on *)
    set (shape := match sz with Some n => ShStatic n | None => _ end) in H. clearbody shape.
    change ((let* (work, after, padded) := arr_work st pad in
             let* (vs, work') := arr_elems (parse_element fl rec w t) st ew shape work in
             Ok (add_val (set_span st (match after with Some t => t | None => work' end)) id
                         (VList vs))) = Ok st') in H.
    apply bind_ok_inv in H. destruct H as [[[work after] padded] [Hw H]].
    apply bind_ok_inv in H. destruct H as [[vs work'] [He H]].
    injection H as <-. exists ew, shape, work, after, padded, vs, work'. auto.
  Qed.
End Steps.

Lemma rust_decode_rec_of fuel oc fl sch id bs :
  rust_decode fuel oc fl sch id bs = rec_of (rust_dec_decl fuel oc fl sch) fl id bs.
Proof. reflexivity. Qed.

Lemma rust_dec_decl_S fuel oc fl sch d bs :
  rust_dec_decl (S fuel) oc fl sch d bs =
  match get_parent fl d with
  | None =>
      let* st := dec_fields oc fl sch (rec_of (rust_dec_decl fuel oc fl sch) fl) fuel d
                            (decl_fields d) (init_state bs) [] 0 in
      let* pl := payload_entry d st in
      Ok (VObj (pl ++ st_vals st)%list, st_span st)
  | Some p =>
      let* (pv, trailing) := rust_dec_decl fuel oc fl sch p bs in
      match pv with
      | VObj pobj =>
          let* v := decode_partial oc fl sch (rec_of (rust_dec_decl fuel oc fl sch) fl) fuel
                                   d p pobj in
          Ok (v, trailing)
      | _ => Panic UnwrapFail
      end
  end.
Proof. reflexivity. Qed.

Lemma rust_dec_decl_root fuel oc fl sch d bs :
  get_parent fl d = None -> decl_payload d = None ->
  rust_dec_decl (S fuel) oc fl sch d bs =
  let* st := dec_fields oc fl sch (rec_of (rust_dec_decl fuel oc fl sch) fl) fuel d (decl_fields d)
                        (init_state bs) [] 0 in
  Ok (VObj (st_vals st), st_span st).
Proof.
  intros Hpar Hpl. rewrite rust_dec_decl_S, Hpar. unfold payload_entry. rewrite Hpl. reflexivity.
Qed.
