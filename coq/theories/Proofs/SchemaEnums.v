(** The schema that [mk_schema] (Schema.v, model of [Schema::new]) actually computes
    satisfies the premise [schema_knows_enums] that the backend theorems carry about an
    arbitrary schema.  [mk_schema_go] prepends, [assoc] takes the first match, [lookup_decl]
    the LAST declaration with the identifier: both pick the same declaration, so this needs
    NO distinctness of identifiers.  It does need every enum width to fit [usize]:
    [type_total] recomputes [decl + parent + payload] with the overflow check of
    [impl Add for Size] ([enum_width_counter_example]).  The total of a fragment root is
    the sum of its field widths only under distinct identifiers
    ([frag_total_needs_distinct_ids]). *)
From Coq Require Import NArith List String Bool.
From PDL Require Import Lang.Ast Lang.Sexp Analyzer.Schema Sem.RefEncode Rust.Encode
     Proofs.ListFacts Proofs.BitfieldEncode Proofs.EncodeRef Proofs.StaticSize Proofs.AnalyzerSound.
Import ListNotations.
Open Scope N_scope.

(** the second disjunct of [schema_knows_enums] says no more than the first *)
Lemma lookup_decl_enum_id fl tid i tags w : lookup_decl fl tid = Some (DEnum i tags w) -> i = tid.
Proof. intros H. apply lookup_decl_id in H. cbn [decl_id] in H. now inversion H. Qed.

Lemma schema_knows_enums_iff fl sch :
  schema_knows_enums fl sch <->
  forall tid i tags w, lookup_decl fl tid = Some (DEnum i tags w) -> type_total sch tid = Some (SStatic w).
Proof.
  split.
  - intros Hk tid i tags w. exact (schema_enum_total _ _ _ _ _ _ Hk).
  - intros H tid tags w [Hl|[i Hl]]; exact (H _ _ _ _ Hl).
Qed.

(** a parent that is declared somewhere in the file but not annotated yet is a panic *)
Definition parent_known (all : list string) (sch : schema) (d : decl) : bool :=
  match decl_parent_id d with
  | Some p => match assoc p sch with
              | Some _ => true
              | None => negb (existsb (String.eqb p) all)
              end
  | None => true
  end.

Definition push_decl (sch : schema) (d : decl) (e : dsizes) : schema :=
  match decl_id d with Some id => (id, e) :: sch | None => sch end.

Lemma assoc_push tid sch d e :
  assoc tid (push_decl sch d e) = if has_id tid d then Some e else assoc tid sch.
Proof.
  unfold push_decl, has_id. destruct (decl_id d) as [id|]; [|reflexivity].
  cbn [assoc]. now rewrite String.eqb_sym.
Qed.

Definition sch_step (all : list string) (sch : schema) (d : decl) : option schema :=
  if parent_known all sch d then option_map (push_decl sch d) (annotate_decl sch d) else None.

Lemma go_cons d rest all sch :
  mk_schema_go (d :: rest) all sch =
  match sch_step all sch d with Some s => mk_schema_go rest all s | None => None end.
Proof.
  cbn [mk_schema_go]. unfold sch_step, push_decl. fold (parent_known all sch d).
  destruct (parent_known all sch d); [|reflexivity].
  destruct (annotate_decl sch d); [|reflexivity]. now destruct (decl_id d).
Qed.

(** What the final schema records for an identifier: the annotation of the LAST
    declaration carrying it, computed against the schema of the declarations before. *)
Lemma go_lookup : forall ds all sch0 sch,
  mk_schema_go ds all sch0 = Some sch ->
  forall tid,
    match find (has_id tid) (rev ds) with
    | Some d =>
        exists pre post s' e,
          ds = (pre ++ d :: post)%list
          /\ mk_schema_go pre all sch0 = Some s'
          /\ annotate_decl s' d = Some e
          /\ assoc tid sch = Some e
    | None => assoc tid sch = assoc tid sch0
    end.
Proof.
  induction ds as [|d rest IH]; intros all sch0 sch Hgo tid.
  - cbn [mk_schema_go] in Hgo. inversion Hgo; subst. cbn [rev find]. reflexivity.
  - rewrite go_cons in Hgo.
    destruct (sch_step all sch0 d) as [s1|] eqn:Es; [|discriminate].
    pose proof (IH all s1 sch Hgo tid) as Hrest.
    cbn [rev]. rewrite find_app.
    destruct (find (has_id tid) (rev rest)) as [d'|].
    + destruct Hrest as (pre & post & s' & e & Hsplit & Hpre & Hann & Has).
      exists (d :: pre), post, s', e. repeat split; try assumption.
      * rewrite Hsplit. reflexivity.
      * rewrite go_cons, Es. exact Hpre.
    + unfold sch_step in Es. destruct (parent_known all sch0 d); [|discriminate].
      destruct (annotate_decl sch0 d) as [e|] eqn:Hann; [|discriminate]. injection Es as <-.
      rewrite Hrest, assoc_push. cbn [find]. destruct (has_id tid d); [|reflexivity].
      exists [], rest, sch0, e. auto.
Qed.

(** the same for a whole file: [s'] is the schema of the declarations BEFORE [d] *)
Lemma mk_schema_entry fl sch tid d :
  mk_schema fl = Some sch -> lookup_decl fl tid = Some d ->
  exists pre post s' e,
    f_decls fl = (pre ++ d :: post)%list
    /\ mk_schema_go pre (decl_ids fl) [] = Some s'
    /\ annotate_decl s' d = Some e
    /\ assoc tid sch = Some e.
Proof.
  unfold mk_schema, lookup_decl. intros Hm Hl.
  pose proof (go_lookup _ _ _ _ Hm tid) as Hg. now rewrite Hl in Hg.
Qed.

Lemma type_total_assoc sch tid e : assoc tid sch = Some e -> type_total sch tid = ds_total e.
Proof. unfold type_total. now intros ->. Qed.

Lemma annotate_enum s i tags w e :
  annotate_decl s (DEnum i tags w) = Some e -> e = mkDs (SStatic w) (SStatic 0) (SStatic 0).
Proof.
  unfold annotate_decl. cbn [decl_parent_id decl_fields annotate_fields].
  intros H. inversion H. reflexivity.
Qed.

Lemma ds_total_static n :
  ds_total (mkDs (SStatic n) (SStatic 0) (SStatic 0)) = if fits_usize n then Some (SStatic n) else None.
Proof.
  unfold ds_total. cbn [ds_decl ds_parent ds_payload size_add]. rewrite !N.add_0_r.
  destruct (fits_usize n) eqn:E; [|reflexivity].
  cbn [size_add]. rewrite N.add_0_r, E. reflexivity.
Qed.

(** every enum declaration's width fits [usize] (the Rust parser reads widths as [usize]) *)
Definition enum_widths_fit (fl : file) : bool :=
  forallb (fun d => match d with DEnum _ _ w => fits_usize w | _ => true end) (f_decls fl).

Theorem mk_schema_enum_total fl sch tid i tags w :
  mk_schema fl = Some sch ->
  lookup_decl fl tid = Some (DEnum i tags w) ->
  type_total sch tid = if fits_usize w then Some (SStatic w) else None.
Proof.
  intros Hmk Hl. destruct (mk_schema_entry _ _ _ _ Hmk Hl) as (pre & post & s' & e & _ & _ & Hann & Has).
  apply annotate_enum in Hann. subst e.
  rewrite (type_total_assoc _ _ _ Has). apply ds_total_static.
Qed.

Theorem mk_schema_knows_enums fl sch :
  enum_widths_fit fl = true ->
  mk_schema fl = Some sch ->
  schema_knows_enums fl sch.
Proof.
  intros Hfit Hmk. apply schema_knows_enums_iff. intros tid i tags w Hl.
  rewrite (mk_schema_enum_total fl sch tid i tags w Hmk Hl).
  unfold enum_widths_fit in Hfit. rewrite forallb_forall in Hfit.
  now rewrite (Hfit _ (lookup_decl_In _ _ _ Hl)).
Qed.

(** the side condition is necessary for the enums that lookups can see *)
Theorem mk_schema_knows_enums_iff fl sch :
  mk_schema fl = Some sch ->
  (schema_knows_enums fl sch <->
   forall tid i tags w, lookup_decl fl tid = Some (DEnum i tags w) -> fits_usize w = true).
Proof.
  intros Hmk. rewrite schema_knows_enums_iff.
  split; intros H tid i tags w Hl; specialize (H tid i tags w Hl);
    rewrite (mk_schema_enum_total fl sch tid i tags w Hmk Hl) in *.
  - now destruct (fits_usize w).
  - now rewrite H.
Qed.

Theorem rust_encode_fragment_real_schema fuel fl sch id d v bs :
  enum_widths_fit fl = true ->
  mk_schema fl = Some sch ->
  lookup_decl fl id = Some d ->
  root_of_fragment fl d ->
  ref_encode (S fuel) fl id v = Some bs ->
  good (rust_encode (S fuel) fl sch id v) bs.
Proof.
  intros Hfit Hmk. apply rust_encode_fragment. exact (mk_schema_knows_enums fl sch Hfit Hmk).
Qed.

Theorem static_exact_fragment_real_schema fl sch rec d all_fields obj payload fs n psz ss :
  enum_widths_fit fl = true ->
  mk_schema fl = Some sch ->
  forallb (bf_field fl) fs = true ->
  annotate_fields sch d fs (SStatic 0) (SStatic 0) = Some (SStatic n, psz) ->
  ref_enc_fields fl rec d all_fields [] obj payload fs 0 0 = Some ss ->
  8 * seg_len ss = n.
Proof.
  intros Hfit Hmk. apply (static_exact_fragment fl sch). exact (mk_schema_knows_enums fl sch Hfit Hmk).
Qed.

(** A declaration is annotated against the schema of the declarations BEFORE it, while
    [frag_bits] reads enum widths through [lookup_decl], i.e. from the LAST declaration
    of an identifier: the two agree when identifiers are distinct, which is what
    [Scope::new] (E1, [scope_new_nodup]) guarantees. *)

Lemma prefix_agrees fl pre all s' :
  NoDup (decl_id_list (f_decls fl)) ->
  (forall x, In x pre -> In x (f_decls fl)) ->
  mk_schema_go pre all [] = Some s' ->
  schema_agrees_enums fl s'.
Proof.
  intros Hnd Hsub Hpre tid i tags w sz Hl Ht. unfold type_total in Ht.
  pose proof (go_lookup pre all [] s' Hpre tid) as Hg.
  change (find (has_id tid) (rev pre)) with (lookup_decl (mkFile (f_endian fl) pre) tid) in Hg.
  destruct (lookup_decl (mkFile (f_endian fl) pre) tid) as [d''|] eqn:Ef.
  - destruct Hg as (_ & _ & s'' & e & _ & _ & Hann & Has).
    (* the one declaration with this identifier is the enum *)
    assert (d'' = DEnum i tags w) as ->
      by exact (unique_by_id _ Hnd _ _ tid (Hsub _ (lookup_decl_In _ _ _ Ef)) (lookup_decl_In _ _ _ Hl)
                             (lookup_decl_id _ _ _ Ef) (lookup_decl_id _ _ _ Hl)).
    apply annotate_enum in Hann. subst e. rewrite Has, ds_total_static in Ht.
    destruct (fits_usize w); [now injection Ht | discriminate Ht].
  - rewrite Hg in Ht. discriminate.
Qed.

Lemma annotate_root s d did fs :
  d = DPacket did [] fs None \/ d = DStruct did [] fs None ->
  decl_fields d = fs
  /\ annotate_decl s d =
     match annotate_fields s d fs (SStatic 0) (SStatic 0) with
     | Some (dsz, psz) => Some (mkDs dsz (SStatic 0) psz)
     | None => None
     end.
Proof.
  intros [-> | ->]; (split; [reflexivity|]); unfold annotate_decl; cbn [decl_parent_id decl_fields];
    now destruct (annotate_fields s _ fs (SStatic 0) (SStatic 0)) as [[dsz psz]|].
Qed.

(** what [Schema::decl_size], [parent_size], [payload_size] and [total_size] answer for a
    fragment root *)
Theorem mk_schema_fragment_total fl sch id d :
  NoDup (decl_id_list (f_decls fl)) ->
  mk_schema fl = Some sch ->
  lookup_decl fl id = Some d ->
  root_of_fragment fl d ->
  assoc id sch = Some (mkDs (SStatic (frag_bits fl (decl_fields d))) (SStatic 0) (SStatic 0))
  /\ type_total sch id = Some (SStatic (frag_bits fl (decl_fields d))).
Proof.
  intros Hnd Hmk Hl [[did [fs Hd]] Hbf].
  destruct (mk_schema_entry _ _ _ _ Hmk Hl) as (pre & post & s' & e & Hsplit & Hpre & Hann & Has).
  assert (Hag : schema_agrees_enums fl s').
  { apply (prefix_agrees fl pre (decl_ids fl) s' Hnd); [|exact Hpre].
    intros x Hx. rewrite Hsplit. apply in_or_app. left. exact Hx. }
  destruct (annotate_root s' d did fs Hd) as [Hfs Hroot].
  rewrite Hfs in *. rewrite Hroot in Hann.
  destruct (annotate_fields s' d fs (SStatic 0) (SStatic 0)) as [[dsz psz]|] eqn:Ea; [|discriminate].
  destruct (annotate_fields_agrees fl s' d Hag fs 0 (SStatic 0) dsz psz Hbf Ea) as (Hd' & Hp & Hfits).
  rewrite N.add_0_l in Hd', Hfits. subst dsz psz. inversion Hann; subst e.
  split; [exact Has|].
  rewrite (type_total_assoc _ _ _ Has), ds_total_static, (Hfits eq_refl). reflexivity.
Qed.

Corollary mk_schema_fragment_total_scope fl sch id d :
  Passes.scope_new fl = [] ->
  mk_schema fl = Some sch ->
  lookup_decl fl id = Some d ->
  root_of_fragment fl d ->
  type_total sch id = Some (SStatic (frag_bits fl (decl_fields d))).
Proof.
  intros Hs Hmk Hl Hr. apply scope_new_nodup in Hs.
  exact (proj2 (mk_schema_fragment_total fl sch id d Hs Hmk Hl Hr)).
Qed.

(** C16 for the real schema: the constant the public query returns for a fragment root is
    the number of bits of every reference encoding of its fields. *)
Theorem static_total_exact_real_schema fl sch id d rec all_fields obj payload n ss :
  NoDup (decl_id_list (f_decls fl)) ->
  mk_schema fl = Some sch ->
  lookup_decl fl id = Some d ->
  root_of_fragment fl d ->
  type_total sch id = Some (SStatic n) ->
  ref_enc_fields fl rec d all_fields [] obj payload (decl_fields d) 0 0 = Some ss ->
  8 * seg_len ss = n.
Proof.
  intros Hnd Hmk Hl Hr Ht Hss.
  rewrite (proj2 (mk_schema_fragment_total fl sch id d Hnd Hmk Hl Hr)) in Ht.
  inversion Ht; subst n. destruct Hr as [_ Hbf].
  exact (ref_fragment_bits fl rec d all_fields obj payload [] (decl_fields d) 0 0 ss Hbf Hss).
Qed.

Local Open Scope string_scope.

Definition ex_file : file :=
  mkFile LittleEndian
    [ DEnum "A" [TagValue "X" 0; TagValue "Y" 1] 3;
      DEnum "B" [TagValue "Z" 2] 5;
      DPacket "P" [] [mkField (Typedef "a" "A") None; mkField (Typedef "b" "B") None;
                      mkField (Scalar "c" 8) None] None ].

Example ex_side_conditions :
  enum_widths_fit ex_file = true
  /\ NoDup (decl_id_list (f_decls ex_file))
  /\ mk_schema ex_file
     = Some [("P", mkDs (SStatic 16) (SStatic 0) (SStatic 0));
             ("B", mkDs (SStatic 5) (SStatic 0) (SStatic 0));
             ("A", mkDs (SStatic 3) (SStatic 0) (SStatic 0))].
Proof.
  split; [vm_compute; reflexivity|]. split; [|vm_compute; reflexivity].
  apply scope_new_nodup. vm_compute. reflexivity.
Qed.

Example ex_knows_enums : exists sch, mk_schema ex_file = Some sch /\ schema_knows_enums ex_file sch.
Proof.
  destruct ex_side_conditions as (Hfit & _ & Hmk).
  eexists. split; [exact Hmk|]. exact (mk_schema_knows_enums _ _ Hfit Hmk).
Qed.

Example ex_packet_total :
  exists sch d, mk_schema ex_file = Some sch /\ lookup_decl ex_file "P" = Some d
                /\ root_of_fragment ex_file d /\ type_total sch "P" = Some (SStatic 16).
Proof.
  destruct ex_side_conditions as (_ & Hnd & Hmk).
  eexists. eexists. split; [exact Hmk|]. split; [vm_compute; reflexivity|].
  assert (Hroot : root_of_fragment ex_file
            (DPacket "P" [] [mkField (Typedef "a" "A") None; mkField (Typedef "b" "B") None;
                             mkField (Scalar "c" 8) None] None)).
  { split; [eexists; eexists; left; reflexivity | vm_compute; reflexivity]. }
  split; [exact Hroot|].
  exact (proj2 (mk_schema_fragment_total ex_file _ "P" _ Hnd Hmk eq_refl Hroot)).
Qed.

(** Without the width condition the statement is false: [mk_schema] succeeds and the
    enum has no total size. *)
Definition cex_wide_enum : file := mkFile LittleEndian [DEnum "E" [] 18446744073709551616].

Eval vm_compute in (mk_schema cex_wide_enum,
                    match mk_schema cex_wide_enum with Some s => type_total s "E" | None => None end).

Example enum_width_counter_example :
  exists sch, mk_schema cex_wide_enum = Some sch /\ ~ schema_knows_enums cex_wide_enum sch.
Proof.
  eexists. split; [vm_compute; reflexivity|]. intros Hk.
  pose proof (Hk "E" [] 18446744073709551616 (or_introl eq_refl)) as H.
  vm_compute in H. discriminate.
Qed.

(** Duplicate identifiers: [schema_knows_enums] still holds (no [NoDup] among its side
    conditions), but the struct was sized with the enum declared before it. *)
Definition cex_dup : file :=
  mkFile LittleEndian
    [ DEnum "E" [] 8; DStruct "S" [] [mkField (Typedef "e" "E") None] None; DEnum "E" [] 16 ].

Eval vm_compute in (mk_schema cex_dup).

Example frag_total_needs_distinct_ids :
  exists sch d, mk_schema cex_dup = Some sch
                /\ schema_knows_enums cex_dup sch
                /\ lookup_decl cex_dup "S" = Some d /\ root_of_fragment cex_dup d
                /\ type_total sch "S" = Some (SStatic 8)
                /\ frag_bits cex_dup (decl_fields d) = 16.
Proof.
  assert (Hmk : mk_schema cex_dup
                = Some [("E", mkDs (SStatic 16) (SStatic 0) (SStatic 0));
                        ("S", mkDs (SStatic 8) (SStatic 0) (SStatic 0));
                        ("E", mkDs (SStatic 8) (SStatic 0) (SStatic 0))])
    by (vm_compute; reflexivity).
  eexists. eexists. split; [exact Hmk|].
  split; [apply mk_schema_knows_enums; [vm_compute; reflexivity | exact Hmk]|].
  split; [vm_compute; reflexivity|].
  split; [split; [eexists; eexists; right; reflexivity | vm_compute; reflexivity]|].
  split; vm_compute; reflexivity.
Qed.

Print Assumptions mk_schema_knows_enums.
Print Assumptions mk_schema_enum_total.
Print Assumptions mk_schema_knows_enums_iff.
Print Assumptions rust_encode_fragment_real_schema.
Print Assumptions static_exact_fragment_real_schema.
Print Assumptions mk_schema_fragment_total.
Print Assumptions mk_schema_fragment_total_scope.
Print Assumptions static_total_exact_real_schema.
Print Assumptions ex_side_conditions.
Print Assumptions enum_width_counter_example.
Print Assumptions frag_total_needs_distinct_ids.
