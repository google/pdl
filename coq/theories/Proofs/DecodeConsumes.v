(** A declaration made of bit-fields only consumes exactly the number of octets its field
    widths (as the schema gives them) add up to: when the emitted decoder succeeds on such a
    declaration whose widths sum to whole octets, the remainder is the input minus that many
    octets -- nothing of the next packet is eaten. *)
From Coq Require Import NArith List String Lia.
From Coq Require Import Strings.Byte.
From PDL Require Import Base.Outcome Lang.Ast Lang.Sexp Analyzer.Schema Sem.RefEncode Rust.Decode
     Proofs.DecodeSteps Proofs.DecodeSafe.
Import ListNotations.
Open Scope N_scope.

Section Consumes.
  Variable oc : bool.
  Variable fl : file.
  Variable sch : schema.
  Variable rec : string -> list byte -> dres (value * list byte).
  Variable lf : nat.
  Variable d : decl.

  Fixpoint wsum (fs : list field) : option N :=
    match fs with
    | [] => Some 0
    | f :: rest =>
        match field_size sch d f, wsum rest with
        | Some (SStatic w), Some t => Some (w + t)
        | _, _ => None
        end
    end.

  Definition pending_ok (shift : N) : Prop := shift = 0 \/ shift mod 8 <> 0.

  Theorem dec_fields_bits_consumed : forall fs st chunk shift st',
    bits_only fl fs -> pending_ok shift ->
    dec_fields oc fl sch rec lf d fs st chunk shift = Ok st' ->
    exists total k r,
      wsum fs = Some total /\ shift + total = 8 * k + r /\ pending_ok r /\
      len (st_span st) = len (st_span st') + k.
  Proof.
    (* [k] octets have been consumed, [r] bits are pending at the end *)
    induction fs as [|f fs IH]; intros st chunk shift st' Hb Hp H.
    - inversion H; subst st'. exists 0, 0, shift. cbn [wsum]. repeat split; try lia. exact Hp.
    - destruct (Hb f (or_introl eq_refl)) as [Hc Hbf].
      assert (Hb' : bits_only fl fs) by (intros g Hg; apply Hb; right; exact Hg).
      cbn [wsum].
      destruct (field_size sch d f) as [[w| |]|] eqn:Efs;
        try (rewrite dec_fields_cons in H; unfold dec_field in H; rewrite Hc, Hbf, Efs in H; discriminate).
      rewrite (dec_fields_bitfield oc fl sch rec lf d f fs st chunk shift w Hc Hbf Efs) in H.
      destruct ((shift + w) mod 8 =? 0) eqn:Em.
      + apply N.eqb_eq in Em. apply bind_ok_inv in H. destruct H as (st1 & Hch & H).
        apply dec_chunk_span in Hch. destruct Hch as [Hle Hsp].
        destruct (IH _ _ _ _ Hb' (or_introl eq_refl) H) as (t & k & r & Hw & Hs & Hr & Hl).
        exists (w + t), ((shift + w) / 8 + k), r. rewrite Hw. repeat split; [|exact Hr|].
        * clear - Em Hs. lia.
        * rewrite Hsp, len_skipn in Hl. clear - Hl Hle. lia.
      + apply N.eqb_neq in Em.
        destruct (IH _ _ _ _ Hb' (or_intror Em) H) as (t & k & r & Hw & Hs & Hr & Hl).
        exists (w + t), k, r. rewrite Hw. repeat split; try exact Hr; try exact Hl. clear - Hs. lia.
  Qed.

  Corollary dec_fields_bits_consumes_exactly fs st st' total :
    bits_only fl fs -> wsum fs = Some total -> total mod 8 = 0 ->
    dec_fields oc fl sch rec lf d fs st [] 0 = Ok st' ->
    len (st_span st) = len (st_span st') + total / 8.
  Proof.
    intros Hb Hw Hm H.
    destruct (dec_fields_bits_consumed fs st [] 0 st' Hb (or_introl eq_refl) H)
      as (t & k & r & Hw' & Hs & Hr & Hl).
    rewrite Hw in Hw'. inversion Hw'; subst t.
    destruct Hr as [-> | Hr]; [rewrite Hl; f_equal; lia|].
    exfalso. apply Hr. lia.
  Qed.
End Consumes.

Theorem rust_dec_decl_bits_consumes fuel oc fl sch d bs v rest total :
  bits_root fl d -> wsum sch d (decl_fields d) = Some total -> total mod 8 = 0 ->
  rust_dec_decl (S fuel) oc fl sch d bs = Ok (v, rest) ->
  len bs = len rest + total / 8.
Proof.
  intros [Hp Hb] Hw Hm H. rewrite rust_dec_decl_S, Hp in H. do 2 ok_step H. injection H as _ <-.
  exact (dec_fields_bits_consumes_exactly oc fl sch _ fuel d _ _ _ total Hb Hw Hm E).
Qed.
