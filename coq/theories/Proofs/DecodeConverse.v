(** C04, the converse direction on the bit-field fragment (root declarations): whatever
    the emitted decoder accepts is canonical and has a reference encoding, which together
    with the remainder accounts for every input byte; without reserved bits the input is
    that encoding followed by the remainder, and with them (the decoder skips them, the
    reference clears them) canonical re-encoding is a fixpoint.
    The items the decoder read are extracted independently of any object, with the segments
    an item-driven encoder [enc_items] produces for them; the reference encoder of any
    object that agrees with the recorded values is [enc_items] ([ref_enc_items]). *)
From Coq Require Import NArith List String Bool Lia.
From Coq Require Import Strings.Byte.
From PDL Require Import Base.Bits Base.Outcome Lang.Ast Lang.Sexp Analyzer.Schema
     Rust.Enum Sem.RefEncode Rust.Decode Proofs.Pack Proofs.EncodeEqns Proofs.BitfieldEncode
     Proofs.ListFacts Proofs.StaticSize Proofs.DecodeSteps Proofs.RoundTrip Proofs.SchemaEnums Proofs.RoundTripReal.
Import ListNotations.
Open Scope N_scope.

Definition is_reserved (f : field) : bool :=
  match f_desc f with Reserved _ => true | _ => false end.

Definition nonres (f : field) : bool := negb (is_reserved f).

Lemma read_items_sum cv : forall fws sh,
  forallb nonres (map fst fws) = true ->
  group_sum (group_of (read_items cv fws sh)) sh = ((cv / 2 ^ sh) mod 2 ^ layout_bits fws) * 2 ^ sh.
Proof.
  induction fws as [|[f w] r IH]; intros sh Hnr.
  - cbn [read_items group_of map group_sum layout_bits]. rewrite N.pow_0_r, N.mod_1_r. reflexivity.
  - cbn [map fst forallb] in Hnr. apply andb_prop in Hnr. destruct Hnr as [Hf Hr].
    cbn [read_items group_of map item_value fst snd group_sum layout_bits].
    fold (group_of (read_items cv r (sh + w))).
    rewrite (IH (sh + w) Hr).
    assert (Hrv : read_val cv sh f w = extract sh w cv).
    { unfold nonres, is_reserved in Hf. unfold read_val. destruct (f_desc f); try reflexivity; discriminate. }
    rewrite Hrv. unfold extract.
    rewrite !N.pow_add_r. rewrite <- N.div_div by (apply N.pow_nonzero; lia).
    rewrite (N.mod_mul_r (cv / 2 ^ sh) (2 ^ w) (2 ^ layout_bits r)) by (apply N.pow_nonzero; lia).
    ring.
Qed.

Lemma read_items_snoc cv pre f w :
  read_items cv (pre ++ [(f, w)]) 0
  = (read_items cv pre 0 ++ [(f, read_val cv (layout_bits pre) f w, w)])%list.
Proof. rewrite read_items_app. cbn [read_items]. now rewrite N.add_0_l. Qed.

Lemma gsum_read_items_snoc cv pre f w :
  gsum (read_items cv (pre ++ [(f, w)]) 0)
  = gsum (read_items cv pre 0) + read_val cv (layout_bits pre) f w * 2 ^ layout_bits pre.
Proof. now rewrite read_items_snoc, gsum_snoc, layout_read_items. Qed.

(** the encoder driven by items alone (the reference encoder with the field values and
    widths already looked up) *)
Fixpoint enc_items (its : list item) (acc nb : N) : option (list seg) :=
  match its with
  | [] => if nb =? 0 then Some [] else None
  | (f, v, w) :: r =>
      if (nb + w) mod 8 =? 0 then
        match enc_items r 0 0 with
        | Some b => Some (int_seg (nbytes (nb + w)) (acc + v * 2 ^ nb) :: b)
        | None => None
        end
      else enc_items r (acc + v * 2 ^ nb) (nb + w)
  end.

(** the converse of [enums_exact]: an integer below 2^w that the emitted [TryFrom]
    accepts is one the reference reads as a variant *)
Definition enums_exact_conv (fl : file) : Prop :=
  forall tid i tags w x e',
    lookup_decl fl tid = Some (DEnum i tags w) ->
    x < 2 ^ w ->
    rust_enum_try_from tags w x = Some (TOk e') ->
    exists e, spec_enum_of_N tags w x = Some e.

Lemma accepted_enums_exact_conv fl : enums_accepted fl -> enums_exact_conv fl.
Proof.
  intros H tid i tags w x e' Hl Hx Htf. rewrite (accepted_try_from fl H tid i tags w x Hl Hx) in Htf.
  destruct (spec_enum_of_N tags w x) as [e|]; [eexists; reflexivity | discriminate].
Qed.

Section Converse.
  Variable oc : bool.
  Variable fl : file.
  Variable sch : schema.
  Variable rec : string -> list byte -> dres (value * list byte).
  Variable lf : nat.
  Variable d : decl.

  Hypothesis Hsch : schema_knows_enums fl sch.

  Lemma read_items_ok cv : forall fws sh,
    Forall (fw_ok sch d) fws ->
    Forall (fun it => admits fl (item_field it) (item_value it)) (read_items cv fws sh) ->
    Forall (item_ok fl sch d) (read_items cv fws sh).
  Proof.
    induction fws as [|[f w] r IH]; intros sh Hok Had; [constructor|].
    inversion Hok as [|? ? Hfw Hok']; inversion Had as [|? ? Ha Had']; subst.
    cbn [read_items]. constructor; [|apply IH; assumption].
    cbn [item_field item_value fst snd] in Ha. split; [|split; [exact Hfw | split; [exact Ha|]]].
    - unfold read_val, extract. pose proof (pow2_pos w).
      destruct (f_desc f); try (apply N.mod_lt; lia). assumption.
    - unfold read_val. destruct (f_desc f); try exact I. reflexivity.
  Qed.

  (** A chunk the decoder accepted: its items are cut out of the integer [cv] that the
      first octets of the span denote; without reserved bits these octets are those of
      the items' group integer. *)
  Lemma dec_chunk_items P st st1 :
    Forall (fw_ok sch d) P -> layout_bits P mod 8 = 0 ->
    dec_chunk fl sch d st (chunk_at P 0) (layout_bits P) = Ok st1 ->
    exists cv,
      Forall (item_ok fl sch d) (read_items cv P 0) /\
      st1 = put_items (set_span st (st_span st1)) (read_items cv P 0) /\
      N.of_nat (nbytes (layout_bits P)) + len (st_span st1) = len (st_span st) /\
      (forallb nonres (map fst P) = true ->
       st_span st = (bytes_E (f_endian fl) (nbytes (layout_bits P)) (gsum (read_items cv P 0))
                     ++ st_span st1)%list).
  Proof.
    intros HP Em H. rewrite (dec_chunk_reads fl sch d P st HP Em) in H.
    destruct (len (st_span st) <? layout_bits P / 8) eqn:El; [discriminate|].
    destruct (integer_width (layout_bits P)) as [ctw|]; [|discriminate].
    destruct (firstn_nbytes (f_endian fl) _ _ Em El) as [Hfl Hcv].
    set (n := nbytes (layout_bits P)) in *. set (cv := of_E (f_endian fl) (firstn n (st_span st))) in *.
    apply bind_items_ok in H. destruct H as [Had ->]. cbn [st_span put_items set_span].
    exists cv. split; [apply read_items_ok; assumption|]. split; [reflexivity|]. split.
    - unfold n, nbytes. rewrite len_skipn, N2Nat.id. apply N.ltb_ge in El. clear - El. lia.
    - intros Hnr. pose proof (read_items_sum cv P 0 Hnr) as Hsum. fold (gsum (read_items cv P 0)) in Hsum.
      rewrite N.pow_0_r, N.div_1_r, N.mul_1_r, (N.mod_small _ _ Hcv) in Hsum.
      rewrite Hsum. unfold cv. rewrite <- Hfl at 1. rewrite bytes_E_of_E. symmetry. apply firstn_skipn.
  Qed.

  (** The items the decoder read, for every run that succeeds: those of the pending
      chunk [pre] are cut, like the rest of their chunk, out of some chunk value [cv]. *)
  Theorem dec_fields_items : forall fs pre st st',
    forallb (bf_field fl) fs = true ->
    Forall (fw_ok sch d) pre ->
    (pre = [] \/ layout_bits pre mod 8 <> 0) ->
    (layout_bits pre + frag_bits fl fs) mod 8 = 0 ->
    dec_fields oc fl sch rec lf d fs st (chunk_at pre 0) (layout_bits pre) = Ok st' ->
    exists cv ifs ss,
      map item_field ifs = fs /\
      Forall (item_ok fl sch d) (read_items cv pre 0 ++ ifs) /\
      enc_items ifs (gsum (read_items cv pre 0)) (layout_bits pre) = Some ss /\
      st_vals st' = (st_vals st ++ item_vals (read_items cv pre 0 ++ ifs))%list /\
      len (render (f_endian fl) ss) + len (st_span st') = len (st_span st) /\
      (forallb nonres (map fst pre ++ fs) = true ->
       st_span st = (render (f_endian fl) ss ++ st_span st')%list).
  Proof.
    induction fs as [|f rest IH]; intros pre st st' Hbf Hpre Hpend Hal H.
    - cbn [dec_fields] in H. inversion H; subst st'. cbn [frag_bits] in Hal.
      rewrite N.add_0_r in Hal. destruct Hpend as [-> | Hne]; [|contradiction].
      exists 0, [], []. cbn. rewrite app_nil_r. repeat split; constructor.
    - cbn [forallb] in Hbf. apply andb_prop in Hbf. destruct Hbf as [Hf Hrest].
      pose proof (bf_is_bitfield fl f Hf) as Hbit.
      pose proof (bf_cond fl f Hf) as Hc.
      pose proof (field_size_fragment fl sch d Hsch f Hf) as Hfs.
      cbn [frag_bits] in Hal. set (w := frag_width fl f) in *.
      rewrite (dec_fields_snoc fl sch d oc rec lf pre f w rest st Hc Hbit Hfs) in H.
      set (P := (pre ++ [(f, w)])%list) in *.
      assert (HP : Forall (fw_ok sch d) P)
        by (apply Forall_app; split; [exact Hpre | constructor; [exact Hfs | constructor]]).
      assert (HbP : layout_bits P = layout_bits pre + w)
        by (unfold P; rewrite layout_bits_app; cbn [layout_bits]; now rewrite N.add_0_r).
      rewrite N.add_assoc, <- HbP in Hal.
      pose proof (fun cv => read_items_snoc cv pre f w) as Hri.
      pose proof (fun cv => gsum_read_items_snoc cv pre f w) as Hgs. fold P in Hri, Hgs.
      destruct (layout_bits P mod 8 =? 0) eqn:Em.
      + apply N.eqb_eq in Em. apply bind_ok_inv in H. destruct H as (st1 & Hch & H).
        destruct (dec_chunk_items P st st1 HP Em Hch) as (cv & Hok1 & Hst1 & Hlen1 & Hbytes1).
        rewrite N.add_mod, Em, N.add_0_l, N.mod_mod in Hal by discriminate.
        destruct (IH [] st1 st' Hrest (Forall_nil _) (or_introl eq_refl) Hal H)
          as (cv0 & ifs & ss & Hmap & Hok & Henc & Hv & Hlen & Hbytes).
        cbn [read_items app layout_bits map] in Hok, Henc, Hv, Hbytes. change (gsum []) with 0 in Henc.
        exists cv, ((f, read_val cv (layout_bits pre) f w, w) :: ifs),
               (int_seg (nbytes (layout_bits P)) (gsum (read_items cv P 0)) :: ss).
        replace (read_items cv pre 0 ++ (f, read_val cv (layout_bits pre) f w, w) :: ifs)%list
          with (read_items cv P 0 ++ ifs)%list by (rewrite Hri, <- app_assoc; reflexivity).
        split; [cbn [map item_field fst]; now rewrite Hmap|].
        split; [apply Forall_app; split; assumption|].
        split; [cbn [enc_items]; rewrite <- HbP, Em, N.eqb_refl, Henc, <- Hgs; reflexivity|].
        split; [rewrite Hv, Hst1, item_vals_app, app_assoc; reflexivity|].
        split.
        { rewrite render_cons, len_app, render_int_seg. unfold len at 1. rewrite bytes_E_length.
          rewrite <- Hlen1, <- Hlen. clear. lia. }
        intros Hnr. change (f :: rest) with ([f] ++ rest)%list in Hnr.
        rewrite app_assoc, forallb_app in Hnr. apply andb_prop in Hnr. destruct Hnr as [HnrP Hnrr].
        replace (map fst pre ++ [f])%list with (map fst P) in HnrP by (unfold P; now rewrite map_app).
        rewrite render_cons, render_int_seg, <- app_assoc, <- (Hbytes Hnrr). exact (Hbytes1 HnrP).
      + apply N.eqb_neq in Em.
        destruct (IH P st st' Hrest HP (or_intror Em) Hal H)
          as (cv & ifs & ss & Hmap & Hok & Henc & Hv & Hlen & Hbytes).
        exists cv, ((f, read_val cv (layout_bits pre) f w, w) :: ifs), ss.
        rewrite Hri, <- app_assoc in Hok, Hv.
        split; [cbn [map item_field fst]; now rewrite Hmap|]. split; [exact Hok|].
        split.
        { cbn [enc_items]. rewrite <- HbP, <- Hgs, (proj2 (N.eqb_neq _ _) Em). exact Henc. }
        split; [exact Hv|]. split; [exact Hlen|].
        intros Hnr. apply Hbytes. unfold P. rewrite map_app, <- app_assoc. exact Hnr.
  Qed.
End Converse.

Section RefItems.
  Variable fl : file.
  Variable sch : schema.
  Variable d : decl.
  Variable refrec : string -> value -> option (list seg).
  Variable all_fields : list field.
  Variable obj : list (string * value).
  Variable payload : list seg.

  Hypothesis Hsch : schema_knows_enums fl sch.
  Hypothesis Hconv : enums_exact_conv fl.

  Lemma item_ref_bitfield f v w :
    bf_field fl f = true -> item_ok fl sch d (f, v, w) ->
    (forall id n, In (id, VNum n) (item_vals [(f, v, w)]) -> assoc id obj = Some (VNum n)) ->
    ref_bitfield fl refrec d all_fields [] obj payload f = Some (v, w)
    /\ vals_of obj [f] = item_vals [(f, v, w)].
  Proof.
    intros Hbf (Hv & Hfs & Hck & Hr0) Hobj.
    unfold fw_ok in Hfs. cbn [fst snd] in Hfs. rewrite (field_size_fragment fl sch d Hsch f Hbf) in Hfs.
    injection Hfs as <-.
    unfold item_vals, field_val in *. unfold vals_of. cbn [flat_map item_field item_value fst snd] in *.
    unfold bf_field in Hbf. unfold ref_bitfield, frag_width in *. unfold admits in Hck.
    destruct (f_cond f); [discriminate|].
    destruct (f_desc f) eqn:Ed; try discriminate.
    - (* FixedScalar *) subst. split; reflexivity.
    - (* FixedEnum *)
      destruct Hck as (tags & ew & Het & Htv). rewrite Het, Htv. cbn [option_map].
      unfold enum_tags in Het. destruct (lookup_decl fl enum_id) as [[]|]; try discriminate.
      injection Het as <- <-. split; reflexivity.
    - (* Reserved *) subst. split; reflexivity.
    - (* Scalar *)
      cbn [find_constraint find]. rewrite (Hobj id v (or_introl eq_refl)). split; reflexivity.
    - (* Typedef *)
      unfold enum_tags. destruct (lookup_decl fl type_id) as [[]|] eqn:El; try discriminate.
      cbn [find_constraint find]. rewrite (Hobj id v (or_introl eq_refl)).
      unfold enum_check in Hck. rewrite El in Hck.
      destruct (rust_enum_try_from tags width v) as [[e'| |]|] eqn:Etf; try discriminate.
      destruct (Hconv type_id _ tags width v e' El Hv Etf) as [e He]. rewrite He. split; reflexivity.
  Qed.

  Lemma ref_enc_items : forall its acc nb,
    forallb (bf_field fl) (map item_field its) = true ->
    Forall (item_ok fl sch d) its ->
    (forall id n, In (id, VNum n) (item_vals its) -> assoc id obj = Some (VNum n)) ->
    ref_enc_fields fl refrec d all_fields [] obj payload (map item_field its) acc nb = enc_items its acc nb
    /\ vals_of obj (map item_field its) = item_vals its.
  Proof.
    induction its as [|[[f v] w] its IH]; intros acc nb Hbf Hok Hobj.
    - split; reflexivity.
    - cbn [map item_field fst forallb] in Hbf. apply andb_prop in Hbf. destruct Hbf as [Hf Hrest].
      inversion Hok as [|? ? Hit Hok']; subst.
      change ((f, v, w) :: its) with ([(f, v, w)] ++ its)%list in Hobj. rewrite item_vals_app in Hobj.
      destruct (item_ref_bitfield f v w Hf Hit (fun id n Hin => Hobj id n (in_or_app _ _ _ (or_introl Hin))))
        as [Hrb Hvals].
      assert (IH' := fun acc nb => IH acc nb Hrest Hok'
                                     (fun id n Hin => Hobj id n (in_or_app _ _ _ (or_intror Hin)))).
      pose proof (bf_cond fl f Hf) as Hc.
      split.
      + cbn [map item_field fst enc_items].
        rewrite ref_enc_fields_cons, Hc, (bf_is_bitfield fl f Hf), Hrb.
        rewrite (proj2 (N.ltb_lt _ _) (proj1 Hit)).
        rewrite (proj1 (IH' 0 0)), (proj1 (IH' (acc + v * 2 ^ nb) (nb + w))). reflexivity.
      + change ((f, v, w) :: its) with ([(f, v, w)] ++ its)%list.
        rewrite item_vals_app, <- Hvals, <- (proj2 (IH' 0 0)).
        cbn [map item_field fst]. unfold vals_of. cbn [flat_map]. rewrite app_nil_r. reflexivity.
  Qed.
End RefItems.

Definition data_ids (fs : list field) : list string :=
  flat_map (fun f => match f_desc f with Scalar id _ | Typedef id _ => [id] | _ => [] end) fs.

Lemma item_vals_ids its : map fst (item_vals its) = data_ids (map item_field its).
Proof.
  unfold item_vals, data_ids. induction its as [|[[f v] w] its IH]; [reflexivity|].
  cbn [flat_map map item_field item_value fst snd]. rewrite map_app, IH. unfold field_val.
  destruct (f_desc f); reflexivity.
Qed.

(** THE DECODER ACCEPTS ONLY WHAT THE REFERENCE CAN ENCODE (root declarations of the
    bit-field fragment whose widths fill whole octets, distinct data field names). *)
Theorem rust_dec_decl_converse fuel oc fl sch refrec all_fields payload d bs o rest :
  schema_knows_enums fl sch -> enums_exact_conv fl ->
  get_parent fl d = None ->
  forallb (bf_field fl) (decl_fields d) = true ->
  frag_bits fl (decl_fields d) mod 8 = 0 ->
  NoDup (data_ids (decl_fields d)) ->
  rust_dec_decl (S fuel) oc fl sch d bs = Ok (VObj o, rest) ->
  canonical_obj o (decl_fields d)
  /\ exists ss,
       ref_enc_fields fl refrec d all_fields [] o payload (decl_fields d) 0 0 = Some ss
       /\ len (render (f_endian fl) ss) + len rest = len bs
       /\ (forallb nonres (decl_fields d) = true -> (render (f_endian fl) ss ++ rest)%list = bs).
Proof.
  intros Hsch Hconv Hpar Hbf Hal Hnd H.
  rewrite (rust_dec_decl_root _ _ _ _ _ _ Hpar (fragment_no_payload fl d Hbf)) in H.
  apply bind_ok_inv in H. destruct H as (st & Ed & H). injection H as <- <-.
  destruct (dec_fields_items oc fl sch _ fuel d Hsch (decl_fields d) [] (init_state bs) st Hbf
                             (Forall_nil _) (or_introl eq_refl) Hal Ed)
    as (cv0 & ifs & ss & Hmap & Hok & Henc & Hv & Hlen & Hbytes).
  cbn [read_items app init_state st_vals st_span map layout_bits] in *. change (gsum []) with 0 in Henc.
  assert (Hids : NoDup (map fst (st_vals st))).
  { rewrite Hv, item_vals_ids, Hmap. exact Hnd. }
  assert (Hobj : forall id n, In (id, VNum n) (item_vals ifs) -> assoc id (st_vals st) = Some (VNum n)).
  { intros id n Hin. apply assoc_nodup; [exact Hids | rewrite Hv; exact Hin]. }
  assert (Hbf' : forallb (bf_field fl) (map item_field ifs) = true) by (rewrite Hmap; exact Hbf).
  destruct (ref_enc_items fl sch d refrec all_fields (st_vals st) payload Hsch Hconv ifs 0 0 Hbf' Hok Hobj)
    as [Hre Hvals].
  rewrite Hmap in Hre, Hvals.
  split; [unfold canonical_obj; rewrite Hvals; symmetry; exact Hv|].
  exists ss. split; [rewrite Hre; exact Henc|]. split; [exact Hlen|].
  intros Hnr. symmetry. apply Hbytes. exact Hnr.
Qed.

(** CANONICAL RE-ENCODING IS A FIXPOINT: the reference bytes of what the decoder returned,
    followed by any bytes [tl], decode again to the same object and [tl] -- reserved bits
    included (the decoder skips them, the reference clears them). *)
Corollary rust_dec_decl_reencode_fixpoint fuel fuel' oc oc' fl sch refrec all_fields payload d bs o rest :
  schema_knows_enums fl sch -> enums_exact fl -> enums_exact_conv fl ->
  get_parent fl d = None ->
  forallb (bf_field fl) (decl_fields d) = true ->
  frag_bits fl (decl_fields d) mod 8 = 0 ->
  NoDup (data_ids (decl_fields d)) ->
  rust_dec_decl (S fuel) oc fl sch d bs = Ok (VObj o, rest) ->
  exists ss,
    ref_enc_fields fl refrec d all_fields [] o payload (decl_fields d) 0 0 = Some ss
    /\ len (render (f_endian fl) ss) + len rest = len bs
    /\ forall tl,
         gooddec (rust_dec_decl (S fuel') oc' fl sch d (render (f_endian fl) ss ++ tl))
                 (fun r => r = (VObj o, tl)).
Proof.
  intros Hsch Hen Hconv Hpar Hbf Hal Hnd H.
  destruct (rust_dec_decl_converse fuel oc fl sch refrec all_fields payload d bs o rest
                                   Hsch Hconv Hpar Hbf Hal Hnd H) as [Hcan (ss & Href & Hlen & _)].
  exists ss. split; [exact Href|]. split; [exact Hlen|]. intros tl.
  apply (rust_dec_decl_reference_canonical fuel' oc' fl sch refrec d all_fields o payload ss tl); assumption.
Qed.

(** The same with the schema the analyzer really computes and enums the analyzer accepts:
    no hypothesis is left about an arbitrary schema or about the enum conversions. *)
Theorem rust_decode_accepts_only_reference_real_schema
        fuel fuel' oc oc' fl sch refrec all_fields payload d bs o rest :
  enum_widths_fit fl = true -> mk_schema fl = Some sch ->
  enums_accepted fl ->
  get_parent fl d = None ->
  forallb (bf_field fl) (decl_fields d) = true ->
  frag_bits fl (decl_fields d) mod 8 = 0 ->
  NoDup (data_ids (decl_fields d)) ->
  rust_dec_decl (S fuel) oc fl sch d bs = Ok (VObj o, rest) ->
  canonical_obj o (decl_fields d)
  /\ exists ss,
       ref_enc_fields fl refrec d all_fields [] o payload (decl_fields d) 0 0 = Some ss
       /\ len (render (f_endian fl) ss) + len rest = len bs
       /\ (forallb nonres (decl_fields d) = true -> (render (f_endian fl) ss ++ rest)%list = bs)
       /\ forall tl,
            gooddec (rust_dec_decl (S fuel') oc' fl sch d (render (f_endian fl) ss ++ tl))
                    (fun r => r = (VObj o, tl)).
Proof.
  intros Hw Hs He Hpar Hbf Hal Hnd H.
  pose proof (mk_schema_knows_enums fl sch Hw Hs) as Hsch.
  destruct (rust_dec_decl_converse fuel oc fl sch refrec all_fields payload d bs o rest
              Hsch (accepted_enums_exact_conv fl He) Hpar Hbf Hal Hnd H) as [Hcan (ss & Href & Hlen & Hex)].
  split; [exact Hcan|]. exists ss. repeat split; try assumption. intros tl.
  exact (rust_dec_decl_reference_canonical fuel' oc' fl sch refrec d all_fields o payload ss tl
           Hsch (accepted_enums_exact fl He) Hpar Hbf Hcan Href).
Qed.

(** ACCEPTANCE IS EXACTLY THE REFERENCE LANGUAGE on declarations of the fragment without
    reserved bits (unless pdlc refuses the declaration: a group wider than 64 bits): the
    decoder returns [(VObj o, rest)] on [bs] iff [o] is canonical, the reference encodes
    it, and [bs] is that encoding followed by [rest]. *)
Theorem rust_dec_decl_accepts_iff_reference fuel oc fl sch refrec all_fields payload d bs o rest :
  enum_widths_fit fl = true -> mk_schema fl = Some sch ->
  enums_accepted fl ->
  get_parent fl d = None ->
  forallb (bf_field fl) (decl_fields d) = true ->
  frag_bits fl (decl_fields d) mod 8 = 0 ->
  NoDup (data_ids (decl_fields d)) ->
  forallb nonres (decl_fields d) = true ->
  rust_dec_decl (S fuel) oc fl sch d bs <> Panic GenAssert ->
  (rust_dec_decl (S fuel) oc fl sch d bs = Ok (VObj o, rest)
   <->
   canonical_obj o (decl_fields d)
   /\ exists ss,
        ref_enc_fields fl refrec d all_fields [] o payload (decl_fields d) 0 0 = Some ss
        /\ bs = (render (f_endian fl) ss ++ rest)%list).
Proof.
  intros Hw Hs He Hpar Hbf Hal Hnd Hnr Hna.
  pose proof (mk_schema_knows_enums fl sch Hw Hs) as Hsch.
  split.
  - intros H.
    destruct (rust_dec_decl_converse fuel oc fl sch refrec all_fields payload d bs o rest
                Hsch (accepted_enums_exact_conv fl He) Hpar Hbf Hal Hnd H) as [Hcan (ss & Href & _ & Hex)].
    split; [exact Hcan|]. exists ss. split; [exact Href | symmetry; apply Hex; exact Hnr].
  - intros [Hcan (ss & Href & Hbs)].
    pose proof (rust_dec_decl_reference_canonical fuel oc fl sch refrec d all_fields o payload ss rest
                  Hsch (accepted_enums_exact fl He) Hpar Hbf Hcan Href) as Hdec.
    rewrite <- Hbs in Hdec. unfold gooddec in Hdec.
    destruct (rust_dec_decl (S fuel) oc fl sch d bs) as [r| |k|]; try contradiction.
    + now rewrite Hdec.
    + destruct k; contradiction.
Qed.

Print Assumptions rust_dec_decl_converse.
Print Assumptions rust_dec_decl_accepts_iff_reference.
Print Assumptions rust_dec_decl_reencode_fixpoint.
Print Assumptions rust_decode_accepts_only_reference_real_schema.

Open Scope string_scope.

(** a big-endian file: an enum with a range and a default tag; [P] has reserved bits, [Q]
    has none (and a fixed enum field) *)
Definition conv_P : decl :=
  DPacket "P" [] [mkField (Scalar "a" 3) None; mkField (Typedef "e" "E") None;
                  mkField (FixedScalar 4 9) None; mkField (Reserved 4) None;
                  mkField (Scalar "b" 24) None] None.
Definition conv_Q : decl :=
  DPacket "Q" [] [mkField (Scalar "a" 3) None; mkField (Typedef "e" "E") None;
                  mkField (FixedEnum "E" "A") None; mkField (Scalar "c" 3) None] None.
Definition conv_file : file :=
  mkFile BigEndian
    [DEnum "E" [TagValue "A" 1; TagRange "R" 4 7 [("R4", 4)]; TagOther "O"] 5; conv_P; conv_Q].

Lemma nodup3 (a b c : string) : a <> b -> a <> c -> b <> c -> NoDup [a; b; c].
Proof. intros H1 H2 H3. repeat constructor; cbn [In]; intuition congruence. Qed.

Lemma conv_file_enums_accepted : enums_accepted conv_file.
Proof.
  intros tid i tags w Hl. apply lookup_decl_In in Hl.
  destruct Hl as [[= <- <- <-]|[[=]|[[=]|[]]]].
  split; [vm_compute; reflexivity|]. split; vm_compute; discriminate.
Qed.

(** every hypothesis of the theorems holds of [P] and [Q]; on [P] the decoder accepts an
    input whose reserved bits are SET (second octet f9) and the reference re-encoding
    clears them (09); on [Q] the input is the reference encoding *)
Example converse_hypotheses_hold :
  enum_widths_fit conv_file = true
  /\ exists sch, mk_schema conv_file = Some sch
     /\ (get_parent conv_file conv_P = None
         /\ forallb (bf_field conv_file) (decl_fields conv_P) = true
         /\ frag_bits conv_file (decl_fields conv_P) mod 8 = 0
         /\ NoDup (data_ids (decl_fields conv_P))
         /\ rust_dec_decl 2 true conv_file sch conv_P [x35; xf9; x01; x02; x03; xff]
            = Ok (VObj [("a", VNum 5); ("e", VNum 6); ("b", VNum 66051)], [xff])
         /\ option_map (render BigEndian)
                       (ref_enc_fields conv_file (fun _ _ => None) conv_P [] []
                                       [("a", VNum 5); ("e", VNum 6); ("b", VNum 66051)] []
                                       (decl_fields conv_P) 0 0)
            = Some [x35; x09; x01; x02; x03])
     /\ (get_parent conv_file conv_Q = None
         /\ forallb (bf_field conv_file) (decl_fields conv_Q) = true
         /\ frag_bits conv_file (decl_fields conv_Q) mod 8 = 0
         /\ NoDup (data_ids (decl_fields conv_Q))
         /\ forallb nonres (decl_fields conv_Q) = true
         /\ rust_dec_decl 2 true conv_file sch conv_Q [x35; xa1; xff]
            = Ok (VObj [("a", VNum 5); ("e", VNum 6); ("c", VNum 5)], [xff])
         /\ option_map (render BigEndian)
                       (ref_enc_fields conv_file (fun _ _ => None) conv_Q [] []
                                       [("a", VNum 5); ("e", VNum 6); ("c", VNum 5)] []
                                       (decl_fields conv_Q) 0 0)
            = Some [x35; xa1]).
Proof.
  split; [reflexivity|]. eexists. split; [reflexivity|].
  split.
  - repeat split; try reflexivity. apply nodup3; discriminate.
  - repeat split; try reflexivity. apply nodup3; discriminate.
Qed.

(** the theorem applied: whatever [Q]'s decoder accepts is a reference encoding followed by
    the remainder *)
Example converse_applied sch bs o rest :
  mk_schema conv_file = Some sch ->
  rust_dec_decl 2 true conv_file sch conv_Q bs = Ok (VObj o, rest) ->
  exists ss,
    ref_enc_fields conv_file (fun _ _ => None) conv_Q [] [] o [] (decl_fields conv_Q) 0 0 = Some ss
    /\ (render BigEndian ss ++ rest)%list = bs.
Proof.
  intros Hs H.
  destruct (rust_decode_accepts_only_reference_real_schema
              1 1 true true conv_file sch (fun _ _ => None) [] [] conv_Q bs o rest
              eq_refl Hs conv_file_enums_accepted eq_refl eq_refl eq_refl) as [_ (ss & Href & _ & Hex & _)].
  - apply nodup3; discriminate.
  - exact H.
  - exists ss. split; [exact Href | apply Hex; reflexivity].
Qed.

(** WITHOUT the whole-octets condition ([Passes.check_decl_sizes], E53) the
    statement fails of the model: on [packet U { a : 4 }] the decoder accepts every input,
    consumes nothing and returns an object without [a]; the reference cannot encode it. *)
Definition unaligned_U : decl := DPacket "U" [] [mkField (Scalar "a" 4) None] None.
Definition unaligned_file : file := mkFile LittleEndian [unaligned_U].

Example unaligned_refuted :
  exists sch, mk_schema unaligned_file = Some sch
  /\ rust_dec_decl 2 true unaligned_file sch unaligned_U [x07] = Ok (VObj [], [x07])
  /\ ref_enc_fields unaligned_file (fun _ _ => None) unaligned_U [] [] [] []
                    (decl_fields unaligned_U) 0 0 = None.
Proof. eexists. split; [reflexivity|]. split; reflexivity. Qed.

(** WITHOUT distinct data field names (C08: pdlc accepts duplicates that come from groups
    or from a parent) the decoded object is not canonical, and its reference encoding is
    not the input. *)
Definition dup_D : decl := DPacket "D" [] [mkField (Scalar "a" 8) None; mkField (Scalar "a" 8) None] None.
Definition dup_file : file := mkFile LittleEndian [dup_D].

Example duplicate_ids_refuted :
  exists sch, mk_schema dup_file = Some sch
  /\ rust_dec_decl 2 true dup_file sch dup_D [x01; x02] = Ok (VObj [("a", VNum 1); ("a", VNum 2)], [])
  /\ vals_of [("a", VNum 1); ("a", VNum 2)] (decl_fields dup_D) = [("a", VNum 1); ("a", VNum 1)]
  /\ option_map (render LittleEndian)
                (ref_enc_fields dup_file (fun _ _ => None) dup_D [] [] [("a", VNum 1); ("a", VNum 2)] []
                                (decl_fields dup_D) 0 0) = Some [x01; x01].
Proof. eexists. split; [reflexivity|]. repeat split; reflexivity. Qed.
