(** [Parent::try_from(&child)] (Rust/Inherit.v, [to_parent]).  Each data field of the parent
    gets the constant of the FIRST constraint on it in the child's chain, or else the child's
    own value of the field; so every constrained field reads back as its constant and the
    constraint checks of [Child::try_from(&parent)] pass.  "First" matters: when a declaration
    constrains the same field twice, the second constant is not in the field and the
    conversion back fails ([Dup.second_constraint_lost]); [first_on_field] excludes that. *)
From Coq Require Import NArith List String Bool.
From Coq Require Import Strings.Byte.
From PDL Require Import Base.Outcome Lang.Ast Lang.Sexp Analyzer.Schema
     Sem.RefEncode Rust.Encode Rust.Decode Rust.Inherit Proofs.ListFacts Proofs.InheritLaws.
Import ListNotations.
Open Scope string_scope.
Open Scope N_scope.

(** the field walk of [Rust.Inherit.to_parent]; the list [l] that is walked is kept apart from
    the list [F] in which enum tags are looked up (the same list at every use) so that
    inductions over [l] leave [F] alone *)
Definition tp_fields (fl : file) (all_cs : list constr) (F : list field)
           (obj : list (string * value)) (l : list field) : option (list (string * value)) :=
  fold_right (fun f acc =>
                match acc, field_id f with
                | Some r, Some id =>
                    match find_constraint all_cs id with
                    | Some c =>
                        match constraint_N fl F c with
                        | Some v => Some ((id, VNum v) :: r)
                        | None => None
                        end
                    | None =>
                        match assoc id obj with
                        | Some v => Some ((id, v) :: r)
                        | None => None
                        end
                    end
                | _, _ => None
                end) (Some []) l.

Definition tp_entry (fl : file) (all_cs : list constr) (F : list field)
           (obj : list (string * value)) (id : string) : option value :=
  match find_constraint all_cs id with
  | Some c => option_map VNum (constraint_N fl F c)
  | None => assoc id obj
  end.

Lemma tp_fields_cons fl all_cs F obj f l :
  tp_fields fl all_cs F obj (f :: l) =
  match tp_fields fl all_cs F obj l, field_id f with
  | Some r, Some id => option_map (fun v => (id, v) :: r) (tp_entry fl all_cs F obj id)
  | _, _ => None
  end.
Proof.
  unfold tp_entry. cbn [tp_fields fold_right]. fold (tp_fields fl all_cs F obj l).
  destruct (tp_fields fl all_cs F obj l), (field_id f) as [id|]; try reflexivity.
  destruct (find_constraint all_cs id) as [c|];
    [destruct (constraint_N fl F c) | destruct (assoc id obj)]; reflexivity.
Qed.

(** The entry of every listed field (the same for every occurrence of an identifier, so
    the first one, which [assoc] finds, is as good as any). *)
Lemma tp_fields_assoc fl all_cs F obj l : forall fs,
  tp_fields fl all_cs F obj l = Some fs ->
  forall id, In (Some id) (map field_id l) ->
    exists v, assoc id fs = Some v /\ tp_entry fl all_cs F obj id = Some v.
Proof.
  induction l as [|f l IH]; intros fs Hfs id Hin; [destruct Hin|].
  rewrite tp_fields_cons in Hfs.
  destruct (tp_fields fl all_cs F obj l) as [r|]; [|discriminate].
  destruct (field_id f) as [id0|] eqn:Eid0; [|discriminate].
  destruct (tp_entry fl all_cs F obj id0) as [v0|] eqn:Ev0; [|discriminate].
  injection Hfs as <-. cbn [assoc map In] in *. rewrite Eid0 in Hin.
  destruct (String.eqb_spec id id0) as [->|Hne]; [eauto|].
  apply (IH r eq_refl). destruct Hin as [[= E]|Hin]; [congruence | exact Hin].
Qed.

Lemma to_parent_eq fuel fl sch d p obj :
  to_parent fuel fl sch d p obj =
  match tp_fields fl (iter_constraints fl d) (data_fields fl p) obj (data_fields fl p) with
  | None => Panic UnwrapFail
  | Some fs =>
      match decl_payload p with
      | Some _ =>
          let* pl := rust_encode_partial fuel fl sch d obj in
          Ok (VObj (fs ++ [("payload", value_of_bytes pl)])%list)
      | None => Ok (VObj fs)
      end
  end.
Proof. reflexivity. Qed.

Lemma to_parent_inv fuel fl sch d p obj v :
  to_parent fuel fl sch d p obj = Ok v ->
  exists fs tl,
    tp_fields fl (iter_constraints fl d) (data_fields fl p) obj (data_fields fl p) = Some fs /\
    v = VObj (fs ++ tl)%list.
Proof.
  rewrite to_parent_eq. intros Hv.
  destruct (tp_fields fl (iter_constraints fl d) (data_fields fl p) obj (data_fields fl p))
    as [fs|] eqn:Efs; [|discriminate].
  exists fs. destruct (decl_payload p) as [pf|].
  - destruct (rust_encode_partial fuel fl sch d obj) as [pl| | |] eqn:Epl;
      cbn [bind] in Hv; try discriminate.
    inversion Hv as [Hv']. eexists. split; reflexivity.
  - inversion Hv as [Hv']. exists []. rewrite app_nil_r. split; reflexivity.
Qed.

Definition is_pdata (fl : file) (p : decl) (id : string) : Prop :=
  In (Some id) (map field_id (data_fields fl p)).

Lemma is_data_field_pdata fl p id :
  is_data_field (data_fields fl p) id = true <-> is_pdata fl p id.
Proof.
  unfold is_data_field, is_pdata. rewrite existsb_exists, in_map_iff. split.
  - intros [f [Hin Hf]]. exists f. split; [|exact Hin].
    destruct (field_id f) as [i|]; [|discriminate].
    apply String.eqb_eq in Hf. subst i. reflexivity.
  - intros [f [Hf Hin]]. exists f. split; [exact Hin|].
    rewrite Hf. apply String.eqb_refl.
Qed.

Lemma pdata_unconstrained fl p id :
  is_pdata fl p id -> find_constraint (iter_constraints fl p) id = None.
Proof.
  unfold is_pdata, data_fields. rewrite in_map_iff. intros [f [Hf Hin]].
  apply filter_In in Hin. destruct Hin as [_ Hkeep].
  rewrite Hf in Hkeep.
  destruct (find_constraint (iter_constraints fl p) id); [|reflexivity].
  destruct (f_desc f); discriminate.
Qed.

(** The constant of a constraint on a field not constrained by [p]'s chain is the same
    whether enum types are looked up in the data fields or in all the fields of [p]. *)
Lemma constraint_N_pdata fl p c :
  find_constraint (iter_constraints fl p) (c_id c) = None ->
  constraint_N fl (data_fields fl p) c = constraint_N fl (iter_fields fl p) c.
Proof.
  intros Hnone. unfold constraint_N, field_type_id, data_fields.
  rewrite find_filter_same; [reflexivity|].
  intros f. unfold field_id. destruct (f_desc f); intros Hg; try discriminate.
  apply String.eqb_eq in Hg. rewrite Hg, Hnone. reflexivity.
Qed.

Lemma iter_constraints_own fl d :
  exists rest, iter_constraints fl d = (decl_constraints d ++ rest)%list.
Proof.
  unfold iter_constraints. destruct (chain_fuel fl) as [|n];
    cbn [parents_and_self flat_map]; eexists; reflexivity.
Qed.

Lemma find_constraint_own fl d c id :
  find_constraint (decl_constraints d) id = Some c ->
  find_constraint (iter_constraints fl d) id = Some c.
Proof.
  intros Hc. destruct (iter_constraints_own fl d) as [rest Hrest]. rewrite Hrest.
  unfold find_constraint in *. rewrite find_app, Hc. reflexivity.
Qed.

(** [c] is the constraint that fixes its field: the first one of the declaration with that
    identifier.  Holds of every constraint when the identifiers are distinct. *)
Definition first_on_field (d : decl) (c : constr) : Prop :=
  find_constraint (decl_constraints d) (c_id c) = Some c.

Lemma nodup_first_on_field d :
  NoDup (map c_id (decl_constraints d)) ->
  forall c, In c (decl_constraints d) -> first_on_field d c.
Proof.
  unfold first_on_field, find_constraint. generalize (decl_constraints d) as cs.
  induction cs as [|a cs IH]; intros Hnd c Hin; [destruct Hin|].
  cbn [map] in Hnd. inversion Hnd as [|x xs Hnotin Hnd']; subst x xs.
  cbn [find]. destruct (String.eqb (c_id a) (c_id c)) eqn:Eac.
  - destruct Hin as [Heq|Hin']; [rewrite Heq; reflexivity|].
    apply String.eqb_eq in Eac. exfalso. apply Hnotin. rewrite Eac.
    apply in_map. exact Hin'.
  - destruct Hin as [Heq|Hin'].
    + subst a. rewrite String.eqb_refl in Eac. discriminate.
    + exact (IH Hnd' c Hin').
Qed.

Lemma to_parent_field fuel fl sch d p obj pobj id :
  to_parent fuel fl sch d p obj = Ok (VObj pobj) ->
  is_pdata fl p id ->
  exists v, assoc id pobj = Some v /\
            tp_entry fl (iter_constraints fl d) (data_fields fl p) obj id = Some v.
Proof.
  intros Hok Hdata.
  destruct (to_parent_inv _ _ _ _ _ _ _ Hok) as (fs & tl & Hfs & [= ->]).
  destruct (tp_fields_assoc _ _ _ _ _ _ Hfs id Hdata) as (v & Hassoc & Hv).
  exists v. split; [apply assoc_app_some; exact Hassoc | exact Hv].
Qed.

(** [c] may be inherited: the child's chain lists its own constraints first, then its parents' *)
Theorem to_parent_constrained_field fuel fl sch d p obj pobj id c :
  to_parent fuel fl sch d p obj = Ok (VObj pobj) ->
  is_pdata fl p id ->
  find_constraint (iter_constraints fl d) id = Some c ->
  exists x, constraint_N fl (data_fields fl p) c = Some x /\
            assoc id pobj = Some (VNum x).
Proof.
  intros Hok Hdata Hc. destruct (to_parent_field _ _ _ _ _ _ _ _ Hok Hdata) as (v & Hassoc & Hv).
  unfold tp_entry in Hv. rewrite Hc in Hv.
  destruct (constraint_N fl (data_fields fl p) c) as [x|]; [|discriminate]. injection Hv as <-.
  eauto.
Qed.

Theorem to_parent_get_num fuel fl sch d p obj pobj c :
  to_parent fuel fl sch d p obj = Ok (VObj pobj) ->
  first_on_field d c ->
  is_pdata fl p (c_id c) ->
  exists x, constraint_N fl (iter_fields fl p) c = Some x /\
            assoc (c_id c) pobj = Some (VNum x) /\
            get_num fl (iter_fields fl p) (iter_constraints fl p) pobj (c_id c) = Some x.
Proof.
  intros Hok Hfirst Hdata.
  destruct (to_parent_constrained_field _ _ _ _ _ _ _ _ _ Hok Hdata
              (find_constraint_own fl d c (c_id c) Hfirst)) as [x [Hx Hassoc]].
  rewrite (constraint_N_pdata fl p c (pdata_unconstrained fl p _ Hdata)) in Hx.
  exists x. split; [exact Hx|]. split; [exact Hassoc|].
  unfold get_num. rewrite (pdata_unconstrained fl p _ Hdata), Hassoc. reflexivity.
Qed.

Theorem to_parent_constraint_value fuel fl sch d p obj pobj c x :
  to_parent fuel fl sch d p obj = Ok (VObj pobj) ->
  first_on_field d c ->
  is_pdata fl p (c_id c) ->
  constraint_N fl (iter_fields fl p) c = Some x ->
  assoc (c_id c) pobj = Some (VNum x).
Proof.
  intros Hok Hfirst Hdata Hx.
  destruct (to_parent_get_num _ _ _ _ _ _ _ _ Hok Hfirst Hdata) as (y & Hy & Hassoc & _).
  congruence.
Qed.

Section Back.
  Variables (fuel : nat) (fl : file) (sch : schema) (d p : decl).
  Variables (obj pobj : list (string * value)).
  Hypothesis Hok : to_parent fuel fl sch d p obj = Ok (VObj pobj).
  Hypothesis Hfirst : forall c, In c (decl_constraints d) -> first_on_field d c.
  Hypothesis Hdata : forall c, In c (decl_constraints d) -> is_pdata fl p (c_id c).

  Lemma to_parent_own_constraint c :
    In c (decl_constraints d) ->
    exists x, get_num fl (iter_fields fl p) (iter_constraints fl p) pobj (c_id c) = Some x /\
              constraint_N fl (iter_fields fl p) c = Some x.
  Proof.
    intros Hin.
    destruct (to_parent_get_num _ _ _ _ _ _ _ c Hok (Hfirst c Hin) (Hdata c Hin))
      as (x & Hx & _ & Hg).
    exists x. split; [exact Hg | exact Hx].
  Qed.

  Lemma to_parent_resolvable :
    Forall (resolvable fl (iter_fields fl p) (iter_constraints fl p) pobj) (decl_constraints d).
  Proof.
    apply Forall_forall. intros c Hin.
    destruct (to_parent_own_constraint c Hin) as (x & Hg & Hx). exists x, x. auto.
  Qed.

  Lemma to_parent_not_violated :
    ~ Exists (violated fl (iter_fields fl p) (iter_constraints fl p) pobj) (decl_constraints d).
  Proof.
    intros Hex. apply Exists_exists in Hex as (c & Hin & a & e & Ha & He & Hne).
    destruct (to_parent_own_constraint c Hin) as (x & Hg & Hx). congruence.
  Qed.

  Theorem to_parent_checks_pass :
    check_loop fl (iter_fields fl p) (iter_constraints fl p) pobj (decl_constraints d) = Ok tt.
  Proof.
    destruct (check_loop_spec fl _ _ pobj _ to_parent_resolvable) as [[Hpass _]|[_ Hex]];
      [exact Hpass|].
    exfalso. exact (to_parent_not_violated Hex).
  Qed.

  (** [decode_partial] gets past its constraint checks: what it returns is what the rest
      of the conversion (the child's own fields, parsed from the payload) returns. *)
  Theorem to_parent_converts_back_past_checks oc :
    try_from_parent fuel oc fl sch d p pobj =
    (let copied :=
       filter (fun kv => mem_str (fst kv) (data_field_ids fl d)
                         && negb (mem_str (fst kv) (own_field_ids d))) pobj in
     match decl_payload p with
     | Some _ =>
         match obj_payload pobj with
         | Some buf =>
             let* st := dec_fields oc fl sch (rec_dec fuel oc fl sch) fuel d (decl_fields d)
                                   (init_state buf) [] 0 in
             match st_span st with
             | [] =>
                 let* pl := payload_entry d st in
                 Ok (VObj (pl ++ st_vals st ++ copied)%list)
             | _ => Err TrailingBytesError
             end
         | None => Panic UnwrapFail
         end
     | None => Ok (VObj copied)
     end).
  Proof.
    unfold try_from_parent, decode_partial.
    fold (check_loop fl (iter_fields fl p) (iter_constraints fl p) pobj).
    rewrite to_parent_checks_pass. reflexivity.
  Qed.

  Theorem to_parent_converts_back_no_constraint_error oc :
    decl_payload p = None ->
    exists v, try_from_parent fuel oc fl sch d p pobj = Ok v.
  Proof.
    intros Hp.
    exact (try_from_parent_no_constraint_error fuel oc fl sch d p pobj
             to_parent_resolvable to_parent_not_violated Hp).
  Qed.
End Back.

Theorem to_parent_copies_unconstrained fuel fl sch d p obj pobj id :
  to_parent fuel fl sch d p obj = Ok (VObj pobj) ->
  is_pdata fl p id ->
  find_constraint (iter_constraints fl d) id = None ->
  exists v, assoc id obj = Some v /\ assoc id pobj = Some v.
Proof.
  intros Hok Hdata Hnone. destruct (to_parent_field _ _ _ _ _ _ _ _ Hok Hdata) as (v & Hassoc & Hv).
  unfold tp_entry in Hv. rewrite Hnone in Hv. eauto.
Qed.

Lemma to_parent_is_object fuel fl sch d p obj v :
  to_parent fuel fl sch d p obj = Ok v -> exists pobj, v = VObj pobj.
Proof.
  intros Hok. destruct (to_parent_inv _ _ _ _ _ _ _ Hok) as [fs [tl [_ Hv]]].
  eexists. exact Hv.
Qed.

(** packet P { k:8, j:8, _payload_ }   packet C : P (k = 1) { a:8 } *)
Module Example.
  Definition fS id w := mkField (Scalar id w) None.
  Definition fP := mkField (Payload None) None.
  Definition cst id v := mkConstr id (Some v) None.

  Definition P := DPacket "P" [] [fS "k" 8; fS "j" 8; fP] None.
  Definition C := DPacket "C" [cst "k" 1] [fS "a" 8] (Some "P").
  Definition fl := mkFile LittleEndian [P; C].
  Definition sch := match mk_schema fl with Some s => s | None => [] end.
  Definition cobj : list (string * value) := [("a", VNum 5); ("j", VNum 7)].
  Definition pobj : list (string * value) :=
    [("k", VNum 1); ("j", VNum 7); ("payload", VList [VNum 5])].

  Example converts : to_parent 10 fl sch C P cobj = Ok (VObj pobj).
  Proof. vm_compute. reflexivity. Qed.

  Example first_ok : forall c, In c (decl_constraints C) -> first_on_field C c.
  Proof. apply nodup_first_on_field. vm_compute. constructor; [intros []|constructor]. Qed.

  Example data_ok : forall c, In c (decl_constraints C) -> is_pdata fl P (c_id c).
  Proof. intros c [Hc|[]]. subst c. vm_compute. left. reflexivity. Qed.

  Example k_is_one : assoc "k" pobj = Some (VNum 1).
  Proof.
    apply (to_parent_constraint_value 10 fl sch C P cobj pobj (cst "k" 1) 1 converts).
    - apply first_ok. left. reflexivity.
    - apply data_ok. left. reflexivity.
    - reflexivity.
  Qed.

  Example checks_pass :
    check_loop fl (iter_fields fl P) (iter_constraints fl P) pobj (decl_constraints C) = Ok tt.
  Proof. exact (to_parent_checks_pass 10 fl sch C P cobj pobj converts first_ok data_ok). Qed.

  Example back : try_from_parent 10 false fl sch C P pobj = Ok (VObj cobj).
  Proof. vm_compute. reflexivity. Qed.

  Example j_copied : exists v, assoc "j" cobj = Some v /\ assoc "j" pobj = Some v.
  Proof.
    apply (to_parent_copies_unconstrained 10 fl sch C P cobj pobj "j" converts).
    - vm_compute. right. left. reflexivity.
    - vm_compute. reflexivity.
  Qed.
End Example.

(** packet P { k:8, _payload_ }   packet C : P (k = 1, k = 2) { a:8 }.  The second constraint
    resolves to 2, the parent holds 1, and the conversion back reports ConstraintValueError. *)
Module Dup.
  Import Example.
  Definition P := DPacket "P" [] [fS "k" 8; fP] None.
  Definition C := DPacket "C" [cst "k" 1; cst "k" 2] [fS "a" 8] (Some "P").
  Definition fl := mkFile LittleEndian [P; C].
  Definition sch := match mk_schema fl with Some s => s | None => [] end.
  Definition cobj : list (string * value) := [("a", VNum 5)].
  Definition pobj : list (string * value) := [("k", VNum 1); ("payload", VList [VNum 5])].

  Example second_constraint_lost :
    to_parent 10 fl sch C P cobj = Ok (VObj pobj) /\
    In (cst "k" 2) (decl_constraints C) /\
    constraint_N fl (iter_fields fl P) (cst "k" 2) = Some 2 /\
    assoc "k" pobj = Some (VNum 1) /\
    try_from_parent 10 false fl sch C P pobj = Err ConstraintValueError.
  Proof.
    split; [vm_compute; reflexivity|].
    split; [right; left; reflexivity|].
    split; [reflexivity|].
    split; vm_compute; reflexivity.
  Qed.
End Dup.

Print Assumptions to_parent_constrained_field.
Print Assumptions to_parent_constraint_value.
Print Assumptions to_parent_get_num.
Print Assumptions to_parent_checks_pass.
Print Assumptions to_parent_converts_back_past_checks.
Print Assumptions to_parent_converts_back_no_constraint_error.
Print Assumptions to_parent_copies_unconstrained.
Print Assumptions Example.converts.
Print Assumptions Example.k_is_one.
Print Assumptions Example.checks_pass.
Print Assumptions Example.back.
Print Assumptions Example.j_copied.
Print Assumptions Dup.second_constraint_lost.
