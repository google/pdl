(** C03 on count and size fields of arrays and on arrays of scalar or enum elements,
    optionally padded: a class included in [ref_class] of [EncodeRef].  The side conditions
    stated there are witnessed here by computed counter-examples. *)
From Coq Require Import NArith List String Bool.
From Coq Require Import Strings.Byte.
From PDL Require Import Base.Outcome Lang.Ast Lang.Sexp Analyzer.Schema Sem.RefEncode Rust.Encode
     Proofs.BitfieldEncode Proofs.EncodeRef Proofs.SchemaEnums.
Import ListNotations.
Open Scope N_scope.

Lemma seg_len_nil : seg_len [] = 0.
Proof. reflexivity. Qed.

Definition is_array_named (fid : string) (f : field) : bool :=
  match f_desc f with Array i _ _ _ _ => String.eqb i fid | _ => false end.

Lemma array_field_eq d fid : array_field d fid = find (is_array_named fid) (decl_fields d).
Proof. reflexivity. Qed.

Section ArrayFragment.
  Variable fl : file.
  Variable d : decl.

  Definition arr_width (f : field) : option N :=
    match f_desc f with
    | Array _ (Some ew) _ _ _ => Some ew
    | Array _ None (Some tid) _ _ =>
        match lookup_decl fl tid with Some (DEnum _ _ ew) => Some ew | _ => None end
    | _ => None
    end.

  Definition is_enum (tid : string) : bool :=
    match lookup_decl fl tid with Some (DEnum _ _ _) => true | _ => false end.

  Definition not_payload_id (fid : string) : bool :=
    negb (String.eqb fid "_payload_" || String.eqb fid "_body_").

  Definition ar_field (f : field) : bool :=
    match f_cond f with
    | Some _ => false
    | None =>
        match f_desc f with
        | Scalar _ _ | FixedScalar _ _ | Reserved _ | Count _ _ | Padding _ => true
        | Typedef _ tid | FixedEnum tid _ => is_enum tid
        | Size fid w =>
            (w <? 64) && not_payload_id fid && (array_modifier d fid =? 0) &&
            match array_field d fid with
            | Some af => match arr_width af with Some _ => true | None => false end
            | None => false
            end
        | Array id _ _ _ _ =>
            match arr_width f, array_field d id with
            | Some ew, Some af =>
                match arr_width af with Some ew' => ew' =? ew | None => false end
            | _, _ => false
            end
        | _ => false
        end
    end.

  Lemma ar_bitfield f :
    ar_field f = true ->
    is_bitfield fl f = match f_desc f with Array _ _ _ _ _ | Padding _ => false | _ => true end.
  Proof.
    unfold ar_field, is_bitfield, is_enum. destruct (f_cond f); [discriminate|].
    destruct (f_desc f); try discriminate; try reflexivity.
    destruct (lookup_decl fl type_id) as [[]|]; try discriminate; reflexivity.
  Qed.

  Lemma ar_field_ref_class f : ar_field f = true -> ref_class fl d f = true.
  Proof.
    intros H. pose proof (ar_bitfield f H) as Hb. revert H Hb.
    destruct f as [fd fc]. unfold ar_field, ref_class. cbn [f_cond f_desc].
    destruct fc; [discriminate|].
    (* a bit-field without side condition: by [ar_bitfield]; padding, arrays and size fields:
       the same condition, [arr_width] being [field_elt_width] *)
    destruct fd; try discriminate; try (intros _ H; exact H); intros H _; exact H.
  Qed.
End ArrayFragment.

Definition root_of_array_fragment (fl : file) (d : decl) : Prop :=
  (exists id fs, d = DPacket id [] fs None \/ d = DStruct id [] fs None)
  /\ forallb (ar_field fl d) (decl_fields d) = true.

Lemma bf_field_ar_field fl d f : bf_field fl f = true -> ar_field fl d f = true.
Proof.
  unfold bf_field, ar_field, is_enum. destruct (f_cond f); [discriminate|].
  destruct (f_desc f); try discriminate; auto.
Qed.

Lemma root_of_fragment_arrays fl d : root_of_fragment fl d -> root_of_array_fragment fl d.
Proof.
  intros [Hd Hbf]. split; [exact Hd|]. rewrite forallb_forall in *.
  intros f Hin. apply bf_field_ar_field. apply Hbf. exact Hin.
Qed.

Theorem rust_encode_array_fragment fuel fl sch id d v bs :
  schema_knows_enums fl sch ->
  lookup_decl fl id = Some d ->
  root_of_array_fragment fl d ->
  ref_encode (S fuel) fl id v = Some bs ->
  good (rust_encode (S fuel) fl sch id v) bs.
Proof. exact (rust_encode_class (ar_field fl) fuel fl sch id d v bs (ar_field_ref_class fl d)). Qed.

Theorem rust_encode_array_fragment_real_schema fuel fl sch id d v bs :
  enum_widths_fit fl = true ->
  mk_schema fl = Some sch ->
  lookup_decl fl id = Some d ->
  root_of_array_fragment fl d ->
  ref_encode (S fuel) fl id v = Some bs ->
  good (rust_encode (S fuel) fl sch id v) bs.
Proof.
  intros Hfit Hmk. apply rust_encode_array_fragment. exact (mk_schema_knows_enums fl sch Hfit Hmk).
Qed.

(** Non-vacuity: a declaration with every kind of field of the class *)

Definition arr_file : file :=
  mkFile BigEndian
    [DEnum "E" [TagValue "A" 1; TagValue "B" 2] 8;
     DPacket "P" []
       [mkField (Scalar "a" 5) None; mkField (Count "y" 3) None;
        mkField (Size "x" 4) None; mkField (Reserved 4) None;
        mkField (Array "x" (Some 16) None None None) None;
        mkField (Array "y" None (Some "E") None None) None;
        mkField (Padding 4) None;
        mkField (Array "z" (Some 24) None None (Some 1)) None] None].

Definition arr_value : value :=
  VObj [("a", VNum 21); ("x", VList [VNum 258; VNum 772]); ("y", VList [VNum 1; VNum 2; VNum 1]);
        ("z", VList [VNum 66051])].

Example arr_example_in_class :
  exists sch d,
    mk_schema arr_file = Some sch /\ enum_widths_fit arr_file = true /\
    lookup_decl arr_file "P" = Some d /\ root_of_array_fragment arr_file d /\
    ref_encode 5 arr_file "P" arr_value
      = Some [x75; x04; x01; x02; x03; x04; x01; x02; x01; x00; x01; x02; x03] /\
    rust_encode 5 arr_file sch "P" arr_value
      = Ok [x75; x04; x01; x02; x03; x04; x01; x02; x01; x00; x01; x02; x03].
Proof.
  eexists. eexists. split; [vm_compute; reflexivity|]. split; [vm_compute; reflexivity|].
  split; [vm_compute; reflexivity|].
  split; [split; [eexists; eexists; left; reflexivity | vm_compute; reflexivity]|].
  split; vm_compute; reflexivity.
Qed.

(** A size modifier on the array: the reference counts it in the size field, the emitted
    encoder does not (encoder.rs, Size arm: "TODO: size modifier"; only the payload
    modifier is added).  [packet M { _size_(x) : 8, x : 8[+2] }] with [x = [1, 2]]. *)
Definition mod_file : file :=
  mkFile LittleEndian
    [DPacket "M" [] [mkField (Size "x" 8) None;
                     mkField (Array "x" (Some 8) None (Some 2) None) None] None].

Example size_modifier_counter_example :
  exists sch, mk_schema mod_file = Some sch /\
    ref_encode 5 mod_file "M" (VObj [("x", VList [VNum 1; VNum 2])]) = Some [x04; x01; x02] /\
    rust_encode 5 mod_file sch "M" (VObj [("x", VList [VNum 1; VNum 2])]) = Ok [x02; x01; x02].
Proof. eexists. split; [vm_compute; reflexivity|]. split; vm_compute; reflexivity. Qed.

(** A 64-bit size field: the generator evaluates [mask_bits(64)] = [(1 << 64) - 1], an
    arithmetic overflow in pdlc itself, where the reference has an encoding. *)
Definition wide_file : file :=
  mkFile LittleEndian
    [DPacket "W" [] [mkField (Size "x" 64) None;
                     mkField (Array "x" (Some 8) None None None) None] None].

Example size64_counter_example :
  exists sch, mk_schema wide_file = Some sch /\
    ref_encode 5 wide_file "W" (VObj [("x", VList [VNum 1])])
      = Some [x01; x00; x00; x00; x00; x00; x00; x00; x01] /\
    rust_encode 5 wide_file sch "W" (VObj [("x", VList [VNum 1])]) = Panic ArithOverflow.
Proof. eexists. split; [vm_compute; reflexivity|]. split; vm_compute; reflexivity. Qed.

(** Two arrays with one name (rejected by the analyzer, E11): the reference
    looks the array up by name and finds the first, the emitted code writes each with its
    own element width.  Hence the comparison of widths in [ar_field]. *)
Definition dup_file : file :=
  mkFile LittleEndian
    [DPacket "D" [] [mkField (Array "x" (Some 8) None None None) None;
                     mkField (Array "x" (Some 16) None None None) None] None].

Example duplicate_name_counter_example :
  exists sch, mk_schema dup_file = Some sch /\
    ref_encode 5 dup_file "D" (VObj [("x", VList [VNum 1])]) = Some [x01; x01] /\
    rust_encode 5 dup_file sch "D" (VObj [("x", VList [VNum 1])]) = Ok [x01; x01; x00].
Proof. eexists. split; [vm_compute; reflexivity|]. split; vm_compute; reflexivity. Qed.

Print Assumptions rust_encode_array_fragment.
Print Assumptions rust_encode_array_fragment_real_schema.
Print Assumptions arr_example_in_class.
Print Assumptions size_modifier_counter_example.
Print Assumptions size64_counter_example.
Print Assumptions duplicate_name_counter_example.
