(** When the analyzer's [check_enum_declaration] reports nothing for an enum declaration,
    the tag list satisfies the two hypotheses under which the Rust conversions are exact
    (Proofs/EnumExact.v), [tags_bounded] and [wf_tagsb]: C15 then speaks of every enum the
    analyzer accepts, with no side condition on the tags ([accepted_enum_exact]). *)
From Coq Require Import NArith List String Bool Lia Permutation Sorted.
From PDL Require Import Lang.Ast Analyzer.Passes Rust.Enum Proofs.ListFacts Proofs.EnumExact.
Import ListNotations.
Open Scope N_scope.

(** Every check only APPENDS to [ediags], so a fold that ends without diagnostics started
    without any and each of its steps found nothing to report. *)

Lemma fold_silent {A} (step : estate -> A -> estate) (P : A -> Prop) :
  (forall st a, ediags (step st a) = [] -> ediags st = [] /\ P a) ->
  forall l st, ediags (fold_left step l st) = [] -> ediags st = [] /\ Forall P l.
Proof.
  intros Hstep. induction l as [|a l IH]; intros st H; cbn [fold_left] in H; [auto|].
  destruct (IH _ H) as [H0 Hl]. destruct (Hstep _ _ H0) as [Hst Ha]. auto.
Qed.

Lemma check_tag_value_silent id v range rr st :
  ediags (check_tag_value id v range rr st) = [] ->
  ediags st = [] /\ range_contains range v = true /\
  forall r, In r rr -> range_contains (ordered_range r) v = false.
Proof.
  unfold check_tag_value, epush, insert_tag_id. cbn [ediags]. intros H.
  apply app_eq_nil in H as [H H43]. apply app_eq_nil in H as [H H14].
  apply app_eq_nil in H as [H _]. apply app_eq_nil in H as [H _].
  split; [exact H|]. split.
  - destruct (range_contains range v); [reflexivity | discriminate].
  - intros r Hr. apply (proj1 (flat_map_nil _ _) H43) in Hr.
    destruct (range_contains (ordered_range r) v); [discriminate | reflexivity].
Qed.

Lemma check_tag_range_silent id lo hi inner range st :
  ediags (check_tag_range id (lo, hi) inner range st) = [] ->
  ediags st = [] /\ range_contains range lo = true /\ range_contains range hi = true /\ lo < hi /\
  forall p, In p inner -> lo <= snd p <= hi.
Proof.
  unfold check_tag_range. cbn [fst snd]. intros H.
  apply (fold_silent _ _ (fun st t => check_tag_value_silent (fst t) (snd t) _ [] st)) in H as [H Hin].
  unfold epush, insert_tag_id in H. cbn [ediags] in H.
  apply app_eq_nil in H as [H Hord]. apply app_eq_nil in H as [H Hb]. apply app_eq_nil in H as [H _].
  destruct (hi <=? lo) eqn:E; [discriminate|].
  destruct (range_contains range lo), (range_contains range hi); try discriminate.
  split; [exact H|]. do 2 (split; [reflexivity|]). split; [lia|]. intros p Hp.
  rewrite Forall_forall in Hin. destruct (Hin p Hp) as [Hc _].
  unfold range_contains, ordered_range in Hc. cbn [fst snd] in Hc. lia.
Qed.

Definition good_tag (range : N * N) (rr : list (N * N)) (t : tag) : Prop :=
  match t with
  | TagValue _ v => range_contains range v = true /\
                    forall r, In r rr -> range_contains (ordered_range r) v = false
  | TagRange _ lo hi inner =>
      range_contains range lo = true /\ range_contains range hi = true /\ lo < hi /\
      forall p, In p inner -> lo <= snd p <= hi
  | TagOther _ => True
  end.

(** the step of the fold in [Passes.check_enum_declaration], named; it has to stay
    convertible to it ([accepted_enum_is_wellformed] introduces it by [change]) *)
Definition estep (range : N * N) (rr : list (N * N)) (st : estate) (t : tag) : estate :=
  match t with
  | TagValue id v => check_tag_value id v range rr st
  | TagRange id lo hi inner => check_tag_range id (lo, hi) inner range st
  | TagOther id => check_tag_other id st
  end.

Lemma estep_silent range rr st t :
  ediags (estep range rr st t) = [] -> ediags st = [] /\ good_tag range rr t.
Proof.
  destruct t; cbn [estep good_tag];
    [apply check_tag_value_silent | apply check_tag_range_silent |].
  unfold check_tag_other, insert_tag_id. cbn [ediags]. intros H.
  apply app_eq_nil in H as [H _]. apply app_eq_nil in H as [H _]. auto.
Qed.

(** The overlap check compares neighbours in sorted order only; for proper ranges that is
    pairwise disjointness, in whatever order. *)

Definition ranges_of (tags : list tag) : list (N * N) :=
  flat_map (fun t => match t with TagRange _ lo hi _ => [(lo, hi)] | _ => [] end) tags.

Definition proper (r : N * N) : Prop := fst r < snd r.
Definition disjoint (a b : N * N) : Prop := snd a < fst b \/ snd b < fst a.
Definition range_le (a b : N * N) : Prop := range_leb a b = true.

Lemma insert_range_perm x l : Permutation (x :: l) (insert_range x l).
Proof.
  induction l as [|y l IH]; cbn [insert_range]; [apply Permutation_refl|].
  destruct (range_leb y x); [|apply Permutation_refl].
  eapply perm_trans; [apply perm_swap|]. apply perm_skip. exact IH.
Qed.

Lemma insert_range_sorted x l :
  StronglySorted range_le l -> StronglySorted range_le (insert_range x l).
Proof.
  induction 1 as [|y l Hl IH Hy]; cbn [insert_range]; [repeat constructor|].
  destruct (range_leb y x) eqn:E.
  - constructor; [exact IH|].
    eapply Permutation_Forall; [apply insert_range_perm|]. constructor; assumption.
  - assert (Hxy : range_le x y) by (unfold range_le, range_leb in *; lia).
    repeat constructor; try assumption.
    eapply Forall_impl; [|exact Hy]. unfold range_le, range_leb in *. intros z Hz. lia.
Qed.

Lemma sort_ranges_spec l : forall acc,
  StronglySorted range_le acc ->
  let s := fold_left (fun acc x => insert_range x acc) l acc in
  Permutation (l ++ acc)%list s /\ StronglySorted range_le s.
Proof.
  induction l as [|x l IH]; intros acc Ha; cbn [fold_left app]; [split; [apply Permutation_refl | exact Ha]|].
  destruct (IH _ (insert_range_sorted x _ Ha)) as [Hp Hs]. split; [|exact Hs].
  eapply perm_trans; [|exact Hp].
  eapply perm_trans; [apply Permutation_middle|].
  apply Permutation_app_head. apply insert_range_perm.
Qed.

Lemma overlaps_nil_pairwise l :
  StronglySorted range_le l -> Forall proper l -> check_overlaps l = [] ->
  ForallOrdPairs disjoint l.
Proof.
  induction 1 as [|a l Hl IH Ha]; intros Hp Hc; [constructor|].
  inversion Hp as [|? ? _ Hp']; subst.
  destruct l as [|b l']; [repeat constructor|].
  cbn [check_overlaps] in Hc. apply app_eq_nil in Hc as [Hab Hc].
  constructor; [|exact (IH Hp' Hc)].
  inversion Ha as [|? ? Hle _]; inversion Hp' as [|? ? Hpb _]; subst.
  assert (Hadj : snd a < fst b).
  { unfold range_le, range_leb, proper in *.
    destruct (negb ((snd a <? fst b) || (snd b <? fst a))) eqn:E; [discriminate|]. lia. }
  inversion Hl as [|? ? _ Hb]; subst.
  constructor; [left; exact Hadj|].
  eapply Forall_impl; [|exact Hb]. unfold range_le, range_leb, disjoint. intros z Hz. lia.
Qed.

Lemma pairwise_perm {A} (R : A -> A -> Prop) l l' :
  (forall a b, R a b -> R b a) -> Permutation l l' ->
  ForallOrdPairs R l -> ForallOrdPairs R l'.
Proof.
  intros Hsym Hp. induction Hp as [|x l l' Hp IH|x y l|l l' l'' _ IH1 _ IH2]; intros H.
  - exact H.
  - inversion H; subst. constructor; [eapply Permutation_Forall; eassumption | auto].
  - inversion H as [|? ? Hy H']; inversion H' as [|? ? Hx Hl]; inversion Hy; subst.
    repeat constructor; auto.
  - auto.
Qed.

Lemma ranges_of_good range rr tags :
  Forall (good_tag range rr) tags -> Forall proper (ranges_of tags).
Proof.
  induction 1 as [|t tags Ht _ IH]; [constructor|].
  destruct t; cbn [ranges_of flat_map app]; try exact IH.
  constructor; [apply Ht | exact IH].
Qed.

(** [rr] stands for the ranges of the whole enum while the induction walks down its tags. *)
Lemma wf_from_good range rr tags :
  Forall (good_tag range rr) tags -> incl (ranges_of tags) rr ->
  ForallOrdPairs disjoint (ranges_of tags) ->
  wf_tagsb tags = true.
Proof.
  (* a range at the head excludes every later value: a value tag by E43 (no range of [rr]
     contains it), the bounds and inner values of a later range by disjointness *)
  induction tags as [|t tags IH]; intros Hg Hrr Hd; [reflexivity|].
  inversion Hg as [|? ? Ht Hg']; subst.
  destruct t as [id v|id lo hi inner|id]; cbn [wf_tagsb]; try (apply IH; assumption).
  cbn [ranges_of flat_map app] in Hrr, Hd. fold (ranges_of tags) in Hrr, Hd.
  inversion Hd as [|? ? Hlo Hd']; subst.
  rewrite IH by (try assumption; intros r Hr; apply Hrr; right; exact Hr).
  rewrite andb_true_r. apply forallb_forall. intros p Hp.
  apply in_flat_map in Hp as [t' [Ht' Hp]].
  destruct Ht as (_ & _ & Hlh & _).
  rewrite Forall_forall in Hg', Hlo. pose proof (Hg' t' Ht') as Gt'.
  destruct t' as [id' v'|id' lo' hi' inner'|id']; cbn [tag_values good_tag] in Hp, Gt'.
  - destruct Hp as [<-|[]]. destruct Gt' as [_ Hout].
    pose proof (Hout (lo, hi) (Hrr _ (or_introl eq_refl))) as Ho.
    unfold range_contains, ordered_range in Ho. cbn [fst snd] in *. lia.
  - destruct Gt' as (_ & _ & _ & Hinner). pose proof (Hinner p Hp) as Hv.
    assert (Hdj : disjoint (lo, hi) (lo', hi')).
    { apply Hlo. apply in_flat_map. exists (TagRange id' lo' hi' inner'). split; [exact Ht' | left; reflexivity]. }
    unfold disjoint in Hdj. cbn [fst snd] in Hdj. lia.
  - destruct Hp.
Qed.

Lemma bounded_from_good w rr tags :
  Forall (good_tag (0, scalar_max w) rr) tags -> tags_bounded (scalar_max w) tags = true.
Proof.
  intros H. unfold tags_bounded. apply forallb_forall. intros t Ht.
  rewrite Forall_forall in H. pose proof (H t Ht) as G.
  destruct t as [id v|id lo hi inner|id]; cbn [good_tag tag_bounded] in *.
  - destruct G as [G _]. unfold range_contains in G. cbn [fst snd] in G. lia.
  - destruct G as (Glo & Ghi & Hlt & Hin). unfold range_contains in Glo, Ghi. cbn [fst snd] in Glo, Ghi.
    apply andb_true_iff. split; [lia|].
    apply forallb_forall. intros p Hp. pose proof (Hin p Hp). lia.
  - reflexivity.
Qed.

Theorem accepted_enum_is_wellformed id tags w :
  check_enum_declaration (DEnum id tags w) = [] ->
  wf_tagsb tags = true /\ tags_bounded (scalar_max w) tags = true.
Proof.
  unfold check_enum_declaration. intros H. apply app_eq_nil in H as [Hd Ho].
  (* the analyzer's [scalar_max] ([usize_max] from 64 bits on) and the generator's (this
     file's, [2 ^ 64 - 1]) are convertible, which this [change] relies on *)
  change (fold_left _ tags (mkEstate [] [] false []))
    with (fold_left (estep (0, scalar_max w) (ranges_of tags)) tags (mkEstate [] [] false [])) in Hd.
  apply (fold_silent _ _ (estep_silent _ _)) in Hd as [_ Hgood].
  split; [|eapply bounded_from_good; exact Hgood].
  apply (wf_from_good _ _ _ Hgood (incl_refl _)).
  fold (ranges_of tags) in Ho. pose proof (ranges_of_good _ _ _ Hgood) as Hprop.
  (* the ranges are proper, so [ordered_range] leaves them as they are *)
  rewrite (map_ext_in _ (fun r => r)), map_id in Ho.
  2: { intros [lo hi] Hr. rewrite Forall_forall in Hprop. apply Hprop in Hr.
       unfold proper, ordered_range in *. cbn [fst snd] in *. f_equal; lia. }
  destruct (sort_ranges_spec (ranges_of tags) [] (SSorted_nil _)) as [Hperm Hsorted].
  rewrite app_nil_r in Hperm.
  apply (pairwise_perm disjoint _ _ (fun a b => proj1 (or_comm _ _)) (Permutation_sym Hperm)).
  apply overlaps_nil_pairwise; [exact Hsorted | eapply Permutation_Forall; eassumption | exact Ho].
Qed.

Theorem accepted_enum_exact id tags w bw c x :
  check_enum_declaration (DEnum id tags w) = [] ->
  integer_width w = Some bw -> enum_is_complete tags (scalar_max w) = Some c -> x < 2 ^ bw ->
  rust_enum_try_from tags w x =
  Some (match spec_enum_of_N tags w x with Some e => TOk e | None => TErr x end).
Proof.
  intros Hacc. destruct (accepted_enum_is_wellformed id tags w Hacc) as [Hwf Hb].
  exact (rust_try_from_exact tags w bw c x Hwf Hb).
Qed.
