(** The emitted ENCODER never panics at run time on declarations of the bit-field
    fragment (scalars, enum typedefs, fixed fields, reserved bits, in any composition),
    WHATEVER value it is given -- in range, out of range, ill-typed: the result is bytes,
    an [EncodeError], or a refusal of the generator (nothing was emitted).  This is the
    "never panics" half of C05 for that fragment; the other half is [rust_encode_fragment].
    A field of the fragment involves no generator arithmetic that overflows and reaches
    no other encoder, so [EncodeSafeAll.enc_fields_fine] asks nothing of the rest of the
    file. *)
From Coq Require Import NArith List String.
From Coq Require Import Strings.Byte.
From PDL Require Import Lang.Ast Rust.Encode Proofs.DecodeSafe Proofs.EncodeEqns Proofs.BitfieldEncode
     Proofs.EncodedLen Proofs.EncodeSafeAll.
Import ListNotations.
Open Scope N_scope.

Lemma bf_field_side fl rec_enc ok f : bf_field fl f = true -> field_side fl rec_enc ok f.
Proof.
  unfold bf_field, field_side, rec_fine, rec_tid, arith_free.
  destruct (f_cond f); [discriminate|].
  destruct (f_desc f) as [ | | | | | | | | | | | | |id tid| ]; try discriminate;
    intros H; (split; [left; reflexivity|]); try discriminate.
  destruct (lookup_decl fl tid) as [[]|]; discriminate.
Qed.

Theorem rust_encode_fragment_nrp fuel fl sch id d v :
  lookup_decl fl id = Some d ->
  root_of_fragment fl d ->
  no_rt_panic (rust_encode (S fuel) fl sch id v).
Proof.
  intros Hl [Hroot Hbf].
  destruct (rust_top_spec (S fuel) fl sch id v) as [v k n Hk| |d' o pl Hl' _ _]; [exact Hk|exact I|].
  rewrite Hl in Hl'. injection Hl' as <-.
  (* the first conjunct of [root_of_fragment] is [root_decl d] unfolded *)
  rewrite rust_enc_decl_S, (root_decl_parent fl d Hroot).
  apply enc_fields_fine; [exact (fun k H => H)|exact I|].
  apply Forall_forall. intros f Hin. apply bf_field_side.
  rewrite forallb_forall in Hbf. exact (Hbf f Hin).
Qed.
