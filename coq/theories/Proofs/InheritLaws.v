(** [decode_partial]'s constraint checks: with every constraint of the child resolvable, the
    conversion from a parent fails with ConstraintValueError when one of them is violated,
    and gets past the checks when none is (to [Ok] for a parent without payload). *)
From Coq Require Import NArith List String.
From Coq Require Import Strings.Byte.
From PDL Require Import Base.Outcome Lang.Ast Lang.Sexp
     Sem.RefEncode Rust.Encode Rust.Decode Rust.Inherit.
Import ListNotations.
Open Scope N_scope.

Section Checks.
  Variable fl : file.
  Variable pfields : list field.
  Variable pcs : list constr.
  Variable pobj : list (string * value).

  (** the anonymous [fix checks] of [Rust.Decode.decode_partial], copied verbatim so that
      [fold (check_loop ..)] finds it; if the two drift apart the [fold] silently does nothing *)
  Definition check_loop :=
    fix checks (cs : list constr) : dres unit :=
      match cs with
      | [] => Ok tt
      | c :: cs' =>
          match get_num fl pfields pcs pobj (c_id c), constraint_N fl pfields c with
          | Some actual, Some expected =>
              if actual =? expected then checks cs' else Err ConstraintValueError
          | _, _ => Panic UnwrapFail
          end
      end.

  (** the field exists in the parent and the constant is known *)
  Definition resolvable (c : constr) : Prop :=
    exists a e, get_num fl pfields pcs pobj (c_id c) = Some a /\ constraint_N fl pfields c = Some e.

  Definition violated (c : constr) : Prop :=
    exists a e, get_num fl pfields pcs pobj (c_id c) = Some a /\ constraint_N fl pfields c = Some e /\ a <> e.

  Lemma check_loop_spec cs :
    Forall resolvable cs ->
    (check_loop cs = Ok tt /\ ~ Exists violated cs) \/
    (check_loop cs = Err ConstraintValueError /\ Exists violated cs).
  Proof.
    induction 1 as [|c cs (a & e & Ha & He) _ IH]; [left; split; [reflexivity | inversion 1]|].
    cbn [check_loop]. rewrite Ha, He. destruct (N.eqb_spec a e) as [->|Hne].
    - destruct IH as [[Hok Hn]|[Herr Hs]]; [left | right; auto].
      split; [exact Hok|]. intros Hex.
      inversion Hex as [? ? (a' & e' & Ha' & He' & Hne)|]; subst; [congruence | auto].
    - right. split; [reflexivity|]. left. exists a, e. auto.
  Qed.
End Checks.

Theorem try_from_parent_constraint_error fuel oc fl sch d p pobj :
  Forall (resolvable fl (iter_fields fl p) (iter_constraints fl p) pobj) (decl_constraints d) ->
  Exists (violated fl (iter_fields fl p) (iter_constraints fl p) pobj) (decl_constraints d) ->
  try_from_parent fuel oc fl sch d p pobj = Err ConstraintValueError.
Proof.
  intros Hres Hex. unfold try_from_parent, decode_partial.
  fold (check_loop fl (iter_fields fl p) (iter_constraints fl p) pobj).
  destruct (check_loop_spec fl _ _ _ _ Hres) as [[_ Hn]|[He _]]; [contradiction|].
  rewrite He. reflexivity.
Qed.

Theorem try_from_parent_no_constraint_error fuel oc fl sch d p pobj :
  Forall (resolvable fl (iter_fields fl p) (iter_constraints fl p) pobj) (decl_constraints d) ->
  ~ Exists (violated fl (iter_fields fl p) (iter_constraints fl p) pobj) (decl_constraints d) ->
  decl_payload p = None ->
  exists v, try_from_parent fuel oc fl sch d p pobj = Ok v.
Proof.
  intros Hres Hn Hp. unfold try_from_parent, decode_partial.
  fold (check_loop fl (iter_fields fl p) (iter_constraints fl p) pobj).
  destruct (check_loop_spec fl _ _ _ _ Hres) as [[Hok _]|[_ He]]; [|contradiction].
  rewrite Hok. cbn [bind]. rewrite Hp. eexists; reflexivity.
Qed.
