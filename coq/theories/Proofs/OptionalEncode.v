(** C03 on condition flags and optional scalar or enum fields, beside the bit-fields of
    [bf_field]: a class included in [ref_class] of [EncodeRef].

    No side condition on the condition values is needed: the reference [flag_value]
    has no encoding when a condition value exceeds 1, and when it has one the uses are
    consistent, so neither [Panic ArithOverflow] nor [Err InconsistentConditionValue]
    can happen where the reference encodes ([flag_consistent_of_value]). *)
From Coq Require Import NArith List String Bool.
From Coq Require Import Strings.Byte.
From PDL Require Import Base.Outcome Lang.Ast Lang.Sexp Analyzer.Schema Sem.RefEncode Rust.Encode
     Proofs.BitfieldEncode Proofs.EncodeRef.
Import ListNotations.
Open Scope N_scope.

Lemma render_app e a b : render e (a ++ b) = (render e a ++ render e b)%list.
Proof. exact (BitfieldEncode.render_app e a b). Qed.

Section Optional.
  Variable fl : file.
  Variable d : decl.

  Definition of_field (f : field) : bool :=
    match f_cond f with
    | Some _ =>
        match f_desc f with
        | Scalar _ _ => true
        | Typedef _ tid =>
            match lookup_decl fl tid with Some (DEnum _ _ _) => true | _ => false end
        | _ => false
        end
    | None =>
        match f_desc f with
        | Flag _ _ => true
        | _ => bf_field fl f
        end
    end.

  Lemma render_single s : render (f_endian fl) [s] = render_seg (f_endian fl) s.
  Proof. apply BitfieldEncode.render_single. Qed.

  Lemma of_field_ref_class f : of_field f = true -> ref_class fl d f = true.
  Proof.
    unfold of_field. destruct (f_cond f) eqn:Ec.
    - unfold ref_class, is_bitfield. rewrite Ec. destruct (f_desc f); exact (fun H => H).
    - destruct (f_desc f) eqn:Ed; try apply bf_field_ref_class.
      intros _. unfold ref_class, is_bitfield. now rewrite Ec, Ed.
  Qed.
End Optional.

Definition root_of_optional_fragment (fl : file) (d : decl) : Prop :=
  (exists id fs, d = DPacket id [] fs None \/ d = DStruct id [] fs None)
  /\ forallb (of_field fl) (decl_fields d) = true.

Theorem rust_encode_optional fuel fl sch id d v bs :
  schema_knows_enums fl sch ->
  lookup_decl fl id = Some d ->
  root_of_optional_fragment fl d ->
  ref_encode (S fuel) fl id v = Some bs ->
  good (rust_encode (S fuel) fl sch id v) bs.
Proof.
  exact (rust_encode_class (fun _ => of_field fl) fuel fl sch id d v bs (of_field_ref_class fl d)).
Qed.

(** Non-vacuity:
    [packet Msg { kind : 7, short_form : 1, ext : 16 if short_form = 0, tail : 8 }] *)

Definition opt_file : file :=
  mkFile BigEndian
    [DPacket "Msg" []
       [mkField (Scalar "kind" 7) None;
        mkField (Flag "short_form" [("ext", 0)]) None;
        mkField (Scalar "ext" 16) (Some (mkConstr "short_form" (Some 0) None));
        mkField (Scalar "tail" 8) None] None].

Definition opt_present : value :=
  VObj [("kind", VNum 5); ("ext", VNum 4660); ("tail", VNum 255)].
Definition opt_absent : value :=
  VObj [("kind", VNum 5); ("ext", VNull); ("tail", VNum 255)].

Example opt_example_in_class :
  exists sch d,
    mk_schema opt_file = Some sch /\
    lookup_decl opt_file "Msg" = Some d /\ root_of_optional_fragment opt_file d /\
    (* present: the flag takes the condition value 0 *)
    ref_encode 5 opt_file "Msg" opt_present = Some [x05; x12; x34; xff] /\
    rust_encode 5 opt_file sch "Msg" opt_present = Ok [x05; x12; x34; xff] /\
    (* absent: the flag takes the other value *)
    ref_encode 5 opt_file "Msg" opt_absent = Some [x85; xff] /\
    rust_encode 5 opt_file sch "Msg" opt_absent = Ok [x85; xff].
Proof.
  eexists. eexists. split; [vm_compute; reflexivity|].
  split; [vm_compute; reflexivity|].
  split; [split; [eexists; eexists; left; reflexivity | vm_compute; reflexivity]|].
  repeat split; vm_compute; reflexivity.
Qed.

(** a flag governing two optional fields with opposite condition values, and values on
    which the uses disagree: the reference has no encoding, the emitted code reports
    [InconsistentConditionValue] (outside the theorem's precondition, for the record) *)
Definition opt2_file : file :=
  mkFile LittleEndian
    [DPacket "Two" []
       [mkField (Flag "c" [("a", 1); ("b", 0)]) None; mkField (Reserved 7) None;
        mkField (Scalar "a" 8) (Some (mkConstr "c" (Some 1) None));
        mkField (Scalar "b" 8) (Some (mkConstr "c" (Some 0) None))] None].

Example opt2_examples :
  exists sch,
    mk_schema opt2_file = Some sch /\
    ref_encode 5 opt2_file "Two" (VObj [("a", VNum 7); ("b", VNull)]) = Some [x01; x07] /\
    rust_encode 5 opt2_file sch "Two" (VObj [("a", VNum 7); ("b", VNull)]) = Ok [x01; x07] /\
    ref_encode 5 opt2_file "Two" (VObj [("a", VNum 7); ("b", VNum 9)]) = None /\
    rust_encode 5 opt2_file sch "Two" (VObj [("a", VNum 7); ("b", VNum 9)]) = Err InconsistentConditionValue.
Proof.
  eexists. split; [vm_compute; reflexivity|]. repeat split; vm_compute; reflexivity.
Qed.

Print Assumptions rust_encode_optional.
Print Assumptions flag_consistent_of_value.
