(** Endianness duality of the reference semantics: the segments of an encoding do not
    depend on the declared byte order; the big-endian bytes are the little-endian
    bytes with every integer segment (bit-field group, multi-byte element, optional
    scalar/enum, sized custom field) reversed and every raw segment (payload,
    padding) unchanged. *)
From Coq Require Import NArith List String Bool Lia.
From Coq Require Import Strings.Byte.
From PDL Require Import Lang.Ast Lang.Sexp Sem.RefEncode.
Import ListNotations.
Open Scope N_scope.

Definition flip (fl : file) : file :=
  mkFile (match f_endian fl with LittleEndian => BigEndian | BigEndian => LittleEndian end) (f_decls fl).

(** The encoder reads its file through declaration lookups only, never [f_endian]: where
    the file is a parameter, not the argument of a recursion, two files with the same
    declarations give convertible terms and [change] or [reflexivity] says so.  What needs
    an argument is the recursion parameter [rec], which the encoder uses through its values
    only. *)
Section Ext.
  Variable fl : file.
  Variables rec rec' : string -> value -> option (list seg).
  Hypothesis Hrec : forall t v, rec t v = rec' t v.

  Lemma enc_elem_ext w t v : ref_enc_elem fl rec w t v = ref_enc_elem fl rec' w t v.
  Proof.
    unfold ref_enc_elem. destruct w; [reflexivity|]. destruct t as [t|]; [|reflexivity].
    destruct (lookup_decl fl t) as [[]|]; try reflexivity. apply Hrec.
  Qed.

  Lemma enc_elems_ext w t vs : ref_enc_elems fl rec w t vs = ref_enc_elems fl rec' w t vs.
  Proof.
    induction vs as [|v vs IH]; cbn [ref_enc_elems]; [reflexivity|].
    rewrite enc_elem_ext, IH. reflexivity.
  Qed.

  Lemma array_elems_ext d obj id : ref_array_elems fl rec d obj id = ref_array_elems fl rec' d obj id.
  Proof.
    unfold ref_array_elems. destruct (array_field d id); [|reflexivity].
    destruct (assoc id obj) as [[]|]; try reflexivity.
    destruct (f_desc f); try reflexivity. rewrite enc_elems_ext. reflexivity.
  Qed.

  Lemma bitfield_ext d all cs obj payload f :
    ref_bitfield fl rec d all cs obj payload f = ref_bitfield fl rec' d all cs obj payload f.
  Proof.
    unfold ref_bitfield. destruct (f_desc f); try reflexivity.
    - destruct (_ || _); [reflexivity|]. rewrite array_elems_ext. reflexivity.
    - rewrite array_elems_ext. reflexivity.
  Qed.

  Lemma enc_fields_ext d all cs obj payload fs : forall acc bits,
    ref_enc_fields fl rec d all cs obj payload fs acc bits =
    ref_enc_fields fl rec' d all cs obj payload fs acc bits.
  Proof.
    induction fs as [|f rest IH]; intros acc bits; cbn [ref_enc_fields]; [reflexivity|].
    destruct (f_cond f).
    - destruct (negb (bits =? 0)); [reflexivity|].
      destruct (assoc _ obj) as [v|]; [|reflexivity].
      rewrite !IH.
      destruct v; try reflexivity;
        (destruct (f_desc f); try reflexivity; rewrite enc_elem_ext; reflexivity).
    - destruct (is_bitfield fl f).
      + rewrite bitfield_ext.
        destruct (ref_bitfield fl rec' d all cs obj payload f) as [[v w]|]; [|reflexivity].
        destruct (v <? 2 ^ w); [|reflexivity].
        destruct ((bits + w) mod 8 =? 0); rewrite IH; reflexivity.
      + destruct (negb (bits =? 0)); [reflexivity|].
        rewrite !IH.
        destruct (f_desc f); try reflexivity.
        * rewrite array_elems_ext. reflexivity.
        * destruct (assoc id obj); [|reflexivity]. rewrite enc_elem_ext. reflexivity.
  Qed.
End Ext.

Lemma parents_indep e e' ds : forall n d,
  parents_and_self n (mkFile e ds) d = parents_and_self n (mkFile e' ds) d.
Proof.
  induction n as [|n IH]; intros d; cbn [parents_and_self]; [reflexivity|].
  change (get_parent (mkFile e ds) d) with (get_parent (mkFile e' ds) d).
  destruct (get_parent (mkFile e' ds) d); [rewrite IH|]; reflexivity.
Qed.

Lemma iter_fields_indep e e' ds d : iter_fields (mkFile e ds) d = iter_fields (mkFile e' ds) d.
Proof. unfold iter_fields, chain_fuel. cbn [f_decls]. now rewrite (parents_indep e e'). Qed.

Lemma iter_constraints_indep e e' ds d : iter_constraints (mkFile e ds) d = iter_constraints (mkFile e' ds) d.
Proof. unfold iter_constraints, chain_fuel. cbn [f_decls]. now rewrite (parents_indep e e'). Qed.

Lemma enc_decl_indep e e' ds : forall fuel d all cs obj payload,
  ref_enc_decl fuel (mkFile e ds) d all cs obj payload = ref_enc_decl fuel (mkFile e' ds) d all cs obj payload.
Proof.
  induction fuel as [|fuel IH]; intros d all cs obj payload; [reflexivity|].
  cbn [ref_enc_decl]. change (ref_enc_fields (mkFile e ds)) with (ref_enc_fields (mkFile e' ds)).
  rewrite (enc_fields_ext _ _ (ref_rec_of (ref_enc_decl fuel (mkFile e' ds)) (mkFile e' ds))).
  2: { intros t v. unfold ref_rec_of.
       change (lookup_decl (mkFile e ds) t) with (lookup_decl (mkFile e' ds) t).
       destruct (lookup_decl (mkFile e' ds) t); [|reflexivity].
       destruct v; try reflexivity. destruct (obj_payload kv); [|reflexivity].
       rewrite (iter_fields_indep e e'), (iter_constraints_indep e e').
       apply IH. }
  destruct (ref_enc_fields _ _ d all cs obj payload (decl_fields d) 0 0); [|reflexivity].
  change (get_parent (mkFile e ds) d) with (get_parent (mkFile e' ds) d).
  destruct (get_parent (mkFile e' ds) d); [apply IH | reflexivity].
Qed.

Theorem segments_flip fuel fl id v : ref_segments fuel (flip fl) id v = ref_segments fuel fl id v.
Proof.
  destruct fl as [e ds]. unfold flip. cbn [f_endian f_decls].
  set (e' := match e with LittleEndian => BigEndian | BigEndian => LittleEndian end).
  unfold ref_segments.
  change (lookup_decl (mkFile e' ds) id) with (lookup_decl (mkFile e ds) id).
  destruct (lookup_decl (mkFile e ds) id) as [d|]; [|reflexivity].
  destruct v; try reflexivity.
  destruct d; try reflexivity;
    (destruct (obj_payload kv) as [pl|]; [|reflexivity];
     rewrite (iter_fields_indep e' e), (iter_constraints_indep e' e);
     destruct (decl_payload _);
     [apply enc_decl_indep | destruct pl; [apply enc_decl_indep | reflexivity]]).
Qed.

Definition swap_segments (ss : list seg) : list byte :=
  List.concat (map (fun s : seg => if snd s then rev (fst s) else fst s) ss).

Lemma render_le ss : render LittleEndian ss = List.concat (map fst ss).
Proof.
  unfold render. induction ss as [|[bs b] ss IH]; [reflexivity|].
  cbn [map List.concat fst render_seg]. now rewrite IH.
Qed.

Lemma render_be ss : render BigEndian ss = swap_segments ss.
Proof.
  unfold render, swap_segments. induction ss as [|[bs b] ss IH]; [reflexivity|].
  cbn [map List.concat fst snd render_seg]. rewrite IH. destruct b; reflexivity.
Qed.

Lemma render_length e ss : List.length (render e ss) = List.length (List.concat (map fst ss)).
Proof.
  unfold render. induction ss as [|[bs b] ss IH]; [reflexivity|].
  cbn [map List.concat fst]. rewrite !app_length, IH. f_equal.
  destruct e, b; cbn; try reflexivity. apply rev_length.
Qed.

Theorem ref_duality fuel fl id v ss :
  f_endian fl = LittleEndian ->
  ref_segments fuel fl id v = Some ss ->
  ref_encode fuel fl id v = Some (List.concat (map fst ss))
  /\ ref_encode fuel (flip fl) id v = Some (swap_segments ss).
Proof.
  intros He Hs. unfold ref_encode. rewrite segments_flip, Hs. cbn [option_map].
  unfold flip. rewrite He. cbn [f_endian]. rewrite render_le, render_be. split; reflexivity.
Qed.

Theorem ref_duality_length fuel fl id v :
  option_map (@List.length byte) (ref_encode fuel fl id v) =
  option_map (@List.length byte) (ref_encode fuel (flip fl) id v).
Proof.
  unfold ref_encode. rewrite segments_flip.
  destruct (ref_segments fuel fl id v) as [ss|]; [|reflexivity].
  cbn [option_map]. f_equal. rewrite !render_length. reflexivity.
Qed.
