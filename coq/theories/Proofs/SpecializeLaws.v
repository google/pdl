(** [specialize()] on the model of generate_specialize_impl (Rust/Inherit.v, [rust_specialize]).
    The generator gathers one case per declaration below each direct child, with the
    constraints on the parent's data fields met on the way down; it keeps a case only if
    the case constrains something (or its size tells it apart) and emits one [match] arm
    per child, children in name order.  So [specialize()] is [None] when no KEPT case
    matches the parent's values, and otherwise the conversion to the least matching child
    in name order.  The generator's ambiguity check makes that child unique when the cases
    constrain the same fields; it does not when siblings constrain different fields
    ([Overlap]), and a child that constrains nothing is never produced ([Unconstrained]). *)
From Coq Require Import NArith List String Bool.
From Coq Require Import Strings.Byte.
From PDL Require Import Base.Outcome Lang.Ast Lang.Sexp Analyzer.Schema
     Sem.RefEncode Rust.Encode Rust.Decode Rust.Inherit Proofs.ListFacts Proofs.SortedSet Proofs.InheritLaws.
Import ListNotations.
Open Scope string_scope.
Open Scope N_scope.

(** Both [gather] and [all_cases] fold a partial function [g] over a list, appending its
    results to an [option (list _)] accumulator: the fold succeeds when [g] is defined on
    every element, and then returns the concatenation of the results. *)
Section FoldOpt.
  Context {A B : Type}.
  Variable g : A -> option (list B).
  Variable f : option (list B) -> A -> option (list B).
  Hypothesis Hf : forall acc k,
      f acc k = match acc, g k with Some a, Some b => Some (a ++ b)%list | _, _ => None end.

  Lemma fold_opt_none l : fold_left f l None = None.
  Proof.
    induction l as [|a l IH]; cbn [fold_left]; [reflexivity|].
    rewrite Hf. exact IH.
  Qed.

  Lemma fold_opt_spec l : forall a0 r,
      fold_left f l (Some a0) = Some r ->
      (forall k, In k l -> g k <> None) /\
      r = (a0 ++ flat_map (fun k => match g k with Some b => b | None => [] end) l)%list.
  Proof.
    induction l as [|a l IH]; intros a0 r H; cbn [fold_left flat_map] in *.
    - injection H as <-. split; [intros k []|]. symmetry. apply app_nil_r.
    - rewrite Hf in H. destruct (g a) as [b|] eqn:Eg; [|rewrite fold_opt_none in H; discriminate].
      destruct (IH _ _ H) as [H1 ->]. split; [|symmetry; apply app_assoc].
      intros k [<-|Hk]; [congruence | exact (H1 k Hk)].
  Qed.
End FoldOpt.

(** the [local] environment of [gather] *)
Definition local_env (fl : file) (dfs : list field) (k : decl) (inh : list (string * N))
  : option (list (string * N)) :=
  fold_left (fun acc c =>
               match acc with
               | None => None
               | Some env =>
                   if is_data_field dfs (c_id c) then
                     match constraint_N fl dfs c with
                     | Some v => Some ((c_id c, v) :: env)
                     | None => None
                     end
                   else Some env
               end) (decl_constraints k) (Some inh).

(** [schema.decl_size(key) + schema.payload_size(key)] *)
Definition decl_total_size (sch : schema) (k : decl) : option size :=
  match decl_id k with
  | Some id =>
      match assoc id sch with
      | Some ds => size_add (ds_decl ds) (ds_payload ds)
      | None => None
      end
  | None => None
  end.

(** [subtree_case k inh env s]: some declaration of the subtree rooted at [k] has total
    size [s], and [env] is [inh] extended with the constraints met on the way down to it. *)
Inductive subtree_case (fl : file) (sch : schema) (dfs : list field)
  : decl -> list (string * N) -> list (string * N) -> size -> Prop :=
| stc_self k inh env s :
    local_env fl dfs k inh = Some env -> decl_total_size sch k = Some s ->
    subtree_case fl sch dfs k inh env s
| stc_child k inh env k2 env' s :
    local_env fl dfs k inh = Some env -> In k2 (iter_children fl k) ->
    subtree_case fl sch dfs k2 env env' s ->
    subtree_case fl sch dfs k inh env' s.

Lemma gather_S fuel fl sch top d dfs inh :
  gather (S fuel) fl sch top d dfs inh =
  match local_env fl dfs d inh with
  | None => None
  | Some env =>
      match fold_left (fun acc k =>
                         match acc, gather fuel fl sch top k dfs env with
                         | Some a, Some b => Some (a ++ b)%list
                         | _, _ => None
                         end) (iter_children fl d) (Some []),
            decl_total_size sch d with
      | Some ks, Some s => Some (ks ++ [mkCase top env s])%list
      | _, _ => None
      end
  end.
Proof. reflexivity. Qed.

Lemma gather_spec fl sch dfs top : forall fuel k inh cs,
    gather fuel fl sch top k dfs inh = Some cs ->
    forall c, In c cs <->
              sc_id c = top /\ subtree_case fl sch dfs k inh (sc_constraints c) (sc_size c).
Proof.
  induction fuel as [|fuel IH]; intros k inh cs Hg c; [discriminate|].
  rewrite gather_S in Hg.
  destruct (local_env fl dfs k inh) as [env|] eqn:El; [|discriminate].
  destruct (fold_left _ _ _) as [ks|] eqn:Ek; [|discriminate].
  destruct (decl_total_size sch k) as [s|] eqn:Es; [|discriminate].
  injection Hg as <-.
  destruct (fold_opt_spec (fun k2 => gather fuel fl sch top k2 dfs env) _
                          (fun acc k2 => eq_refl) _ _ _ Ek) as [H1 ->].
  cbn [app]. rewrite in_app_iff, in_flat_map. split.
  - intros [(k2 & Hk2 & Hc)|[<-|[]]].
    + destruct (gather fuel fl sch top k2 dfs env) as [b|] eqn:Hb; [|destruct Hc].
      destruct (proj1 (IH _ _ _ Hb c) Hc) as [Hid Hsub].
      split; [exact Hid | eapply stc_child; eassumption].
    + split; [reflexivity | apply stc_self; assumption].
  - destruct c as [i cenv cs]. cbn [sc_id sc_constraints sc_size]. intros [-> Hsub].
    inversion Hsub as [? ? ? ? Hl Hs|? ? env1 k2 ? ? Hl Hk2 Hsub2]; subst;
      rewrite El in Hl; injection Hl as <-.
    + right. left. rewrite Es in Hs. injection Hs as <-. reflexivity.
    + left. exists k2. split; [exact Hk2|].
      destruct (gather fuel fl sch top k2 dfs env) as [b|] eqn:Hb; [|destruct (H1 _ Hk2 Hb)].
      apply (IH _ _ _ Hb). auto.
Qed.

(** The gathered cases are exactly: for each direct child [k] of [d], one case named after
    [k] per declaration of [k]'s subtree. *)
Theorem all_cases_spec fl sch d cases :
  all_cases fl sch d = Some cases ->
  forall c, In c cases <->
            exists k, In k (iter_children fl d) /\ decl_id k = Some (sc_id c) /\
                      subtree_case fl sch (data_fields fl d) k []
                                   (sc_constraints c) (sc_size c).
Proof.
  intros Ha c. unfold all_cases in Ha.
  set (g := fun k => match decl_id k with
                     | Some kid => gather (S (List.length (f_decls fl))) fl sch kid k
                                          (data_fields fl d) []
                     | None => None
                     end).
  apply fold_opt_spec with (g := g) in Ha as [H1 ->];
    [|intros [a|] k; unfold g; [destruct (decl_id k)|]; reflexivity].
  cbn [app]. rewrite in_flat_map. split.
  - intros (k & Hk & Hc). unfold g in Hc.
    destruct (decl_id k) as [kid|] eqn:Eid; [|destruct Hc].
    destruct (gather _ _ _ kid _ _ _) as [b|] eqn:Hg; [|destruct Hc].
    apply (gather_spec _ _ _ _ _ _ _ _ Hg) in Hc as [-> Hsub]. eauto.
  - intros (k & Hk & Hid & Hsub). exists k. split; [exact Hk|].
    specialize (H1 k Hk). unfold g in *. rewrite Hid in *.
    destruct (gather _ _ _ (sc_id c) _ _ _) as [b|] eqn:Hg; [|destruct (H1 eq_refl)].
    apply (gather_spec _ _ _ _ _ _ _ _ Hg). auto.
Qed.

Fixpoint go_match (vs : list N) (ps : list (option N)) : bool :=
  match vs, ps with
  | [], [] => true
  | v :: vs', p :: ps' => (match p with Some x => v =? x | None => true end) && go_match vs' ps'
  | _, _ => false
  end.

Lemma pattern_matches_eq vals plen ws pat :
  pattern_matches vals plen ws pat =
  go_match vals (fst pat)
  && (if ws then match snd pat with SStatic s => plen =? s / 8 | _ => true end else true).
Proof. reflexivity. Qed.

Definition unw (o : option N) : N := match o with Some v => v | None => 0 end.
Definition is_none (o : option N) : bool := match o with None => true | Some _ => false end.
Definition is_some (o : option N) : bool := match o with Some _ => true | None => false end.

Definition case_holds (val : string -> option N) (c : spec_case) : Prop :=
  forall id x, assoc id (sc_constraints c) = Some x -> val id = Some x.

Definition size_holds (ws : bool) (plen : N) (c : spec_case) : Prop :=
  ws = true -> forall s, sc_size c = SStatic s -> plen = s / 8.

(** the generator emits no pattern for a case that would be [(_, ..., _)] *)
Definition case_kept (ws : bool) (c : spec_case) : Prop :=
  sc_constraints c <> [] \/ (ws = true /\ sc_size c <> SUnknown).

Definition case_matches (val : string -> option N) (ws : bool) (plen : N) (c : spec_case) : Prop :=
  case_kept ws c /\ case_holds val c /\ size_holds ws plen c.

Lemma case_ids_in cases c id x :
  In c cases -> assoc id (sc_constraints c) = Some x -> In id (case_ids cases).
Proof.
  intros Hc Ha. unfold case_ids. apply sort_dedup_in. apply in_flat_map.
  exists c. split; [exact Hc|]. eapply assoc_in_keys; eassumption.
Qed.

Lemma go_match_spec val cs : forall ids,
    (forall id, In id ids -> val id <> None) ->
    go_match (map unw (map val ids)) (map (fun id => assoc id cs) ids) = true <->
    Forall (fun id => forall x, assoc id cs = Some x -> val id = Some x) ids.
Proof.
  induction ids as [|i ids IH]; intros Hres; cbn [map go_match]; [split; constructor|].
  rewrite andb_true_iff, IH, Forall_cons_iff by (intros id Hin; apply Hres; right; exact Hin).
  apply and_iff_compat_r.
  destruct (val i) as [vi|] eqn:Evi; [|destruct (Hres i (or_introl eq_refl) Evi)]. cbn [unw].
  destruct (assoc i cs) as [x|]; [|split; [intros _ x [=] | reflexivity]].
  rewrite N.eqb_eq. split.
  - intros -> y [= <-]. reflexivity.
  - intros H. specialize (H x eq_refl). injection H as ->. reflexivity.
Qed.

Lemma case_pattern_matches val cases ws plen c :
  In c cases ->
  (forall id, In id (case_ids cases) -> val id <> None) ->
  pattern_matches (map unw (map val (case_ids cases))) plen ws
                  (case_tuple (case_ids cases) c, if ws then sc_size c else SUnknown) = true <->
  case_holds val c /\ size_holds ws plen c.
Proof.
  intros Hc Hres. rewrite pattern_matches_eq. cbn [fst snd]. rewrite andb_true_iff.
  unfold case_tuple. rewrite (go_match_spec val (sc_constraints c) _ Hres), Forall_forall.
  unfold case_holds, size_holds. split.
  - intros [H1 H2]. split.
    + intros id x Ha. apply H1; [|exact Ha]. eapply case_ids_in; eassumption.
    + intros -> s Es. rewrite Es in H2. apply N.eqb_eq in H2. exact H2.
  - intros [H1 H2]. split.
    + intros id _ x Ha. exact (H1 id x Ha).
    + destruct ws; [|reflexivity]. destruct (sc_size c) as [s| |] eqn:Es; try reflexivity.
      apply N.eqb_eq. apply H2; reflexivity.
Qed.

(** the test under which [keyed_of] keeps a case *)
Definition keepb (ids : list string) (ws : bool) (c : spec_case) : bool :=
  existsb (fun o => match o with Some _ => true | None => false end) (case_tuple ids c)
  || negb (size_eqb (if ws then sc_size c else SUnknown) SUnknown).

Lemma keepb_spec cases ws c :
  In c cases -> keepb (case_ids cases) ws c = true <-> case_kept ws c.
Proof.
  intros Hc. unfold keepb, case_kept. rewrite orb_true_iff. split.
  - intros [H|H].
    + left. apply existsb_exists in H. destruct H as [o [Ho Hs]].
      unfold case_tuple in Ho. apply in_map_iff in Ho. destruct Ho as [id [Ha _]].
      intros E. rewrite E in Ha. cbn [assoc] in Ha. subst o. discriminate.
    + right. destruct ws; [|discriminate]. split; [reflexivity|].
      intros E. rewrite E in H. discriminate.
  - intros [H|[-> H]].
    + left. destruct (sc_constraints c) as [|[id x] l] eqn:Ec; [congruence|].
      apply existsb_exists. exists (Some x). split; [|reflexivity].
      unfold case_tuple. apply in_map_iff. exists id.
      assert (Ha : assoc id (sc_constraints c) = Some x).
      { rewrite Ec. cbn [assoc]. rewrite String.eqb_refl. reflexivity. }
      split; [exact Ha|]. eapply case_ids_in; eassumption.
    + right. destruct (sc_size c); try reflexivity. congruence.
Qed.

Definition keyed_of (ids : list string) (ws : bool) (cases : list spec_case)
  : list (string * (list (option N) * size)) :=
  flat_map (fun c =>
              let t := case_tuple ids c in
              let s := if ws then sc_size c else SUnknown in
              if existsb (fun o => match o with Some _ => true | None => false end) t
                 || negb (size_eqb s SUnknown)
              then [(sc_id c, (t, s))] else []) cases.

Definition arms_for (keyed : list (string * (list (option N) * size))) (cid : string) :=
  map snd (filter (fun p => String.eqb (fst p) cid) keyed).

Definition arms_of (keyed : list (string * (list (option N) * size))) :=
  map (fun cid => (cid, arms_for keyed cid)) (sort_dedup (map fst keyed)).

(** The generator runs its ambiguity check twice.  With sizes it must pass, or the
    generator's [unwrap] fails; without sizes, its failure is what makes the payload length
    part of the patterns. *)
Definition with_size_of (cases : list spec_case) : bool :=
  negb (check_cases (case_ids cases) false cases).

Lemma specialize_plan_eq fl sch d :
  specialize_plan fl sch d =
  match all_cases fl sch d with
  | None => None
  | Some cases =>
      if negb (check_cases (case_ids cases) true cases) then None
      else Some (mkPlan (case_ids cases) (with_size_of cases)
                        (arms_of (keyed_of (case_ids cases) (with_size_of cases) cases)))
  end.
Proof. reflexivity. Qed.

Lemma keyed_in ids ws cases cid pat :
  In (cid, pat) (keyed_of ids ws cases) <->
  exists c, In c cases /\ keepb ids ws c = true /\ cid = sc_id c /\
            pat = (case_tuple ids c, if ws then sc_size c else SUnknown).
Proof.
  unfold keyed_of. rewrite in_flat_map. split.
  - intros [c [Hc Hin]]. exists c. split; [exact Hc|]. fold (keepb ids ws c) in Hin.
    destruct (keepb ids ws c); [|destruct Hin].
    destruct Hin as [E|[]]. inversion E. auto.
  - intros [c [Hc [Hk [-> ->]]]]. exists c. split; [exact Hc|]. fold (keepb ids ws c).
    rewrite Hk. left; reflexivity.
Qed.

Lemma kept_keyed cases ws c :
  In c cases -> case_kept ws c ->
  In (sc_id c, (case_tuple (case_ids cases) c, if ws then sc_size c else SUnknown))
     (keyed_of (case_ids cases) ws cases).
Proof.
  intros Hc Hk. apply keyed_in. exists c. split; [exact Hc|].
  split; [apply (keepb_spec _ _ _ Hc); exact Hk | split; reflexivity].
Qed.

Lemma arms_for_in keyed cid pat : In pat (arms_for keyed cid) <-> In (cid, pat) keyed.
Proof.
  unfold arms_for. rewrite in_map_snd. split.
  - intros [i Hin]. apply filter_In in Hin as [Hin He]. apply String.eqb_eq in He. cbn [fst] in He.
    subst i. exact Hin.
  - intros Hin. exists cid. apply filter_In. split; [exact Hin | apply String.eqb_refl].
Qed.

Definition hit (vs : list N) (plen : N) (ws : bool)
           (garms : string -> list (list (option N) * size)) (cid : string) : bool :=
  existsb (pattern_matches vs plen ws) (garms cid).

Section FirstArm.
  Variable vs : list N.
  Variable plen : N.
  Variable ws : bool.
  Variable garms : string -> list (list (option N) * size).

  Local Notation hit := (hit vs plen ws garms).

  Lemma first_arm_least l :
    ssorted l ->
    match first_arm vs plen ws (map (fun cid => (cid, garms cid)) l) with
    | None => forall cid, In cid l -> hit cid = false
    | Some cid =>
        hit cid = true /\
        forall cid', In cid' l -> hit cid' = true -> cid' = cid \/ str_ltb cid cid' = true
    end.
  Proof.
    induction l as [|a l IH]; intros Hs; cbn [map first_arm]; [intros cid []|].
    fold (hit a). specialize (IH (ssorted_tail _ _ Hs)). destruct (hit a) eqn:Ea.
    - split; [exact Ea|].
      intros cid' [<-|Hin] _; [left; reflexivity|]. right. eapply ssorted_head_lt; eassumption.
    - destruct (first_arm _ _ _ _) as [cid|].
      + destruct IH as (Hh & Hmin). split; [exact Hh|].
        intros cid' [<-|Hin'] Hh'; [congruence | auto].
      + intros cid [<-|Hin]; [exact Ea | auto].
  Qed.
End FirstArm.

Lemma hit_spec val cases ws plen cid :
  (forall id, In id (case_ids cases) -> val id <> None) ->
  existsb (pattern_matches (map unw (map val (case_ids cases))) plen ws)
          (arms_for (keyed_of (case_ids cases) ws cases) cid) = true <->
  exists c, In c cases /\ sc_id c = cid /\ case_matches val ws plen c.
Proof.
  intros Hres. rewrite existsb_exists. split.
  - intros [pat [Hin Hm]]. apply arms_for_in in Hin. apply keyed_in in Hin.
    destruct Hin as [c [Hc [Hk [-> ->]]]]. exists c. split; [exact Hc|]. split; [reflexivity|].
    apply (keepb_spec _ _ _ Hc) in Hk.
    apply (case_pattern_matches val cases ws plen c Hc Hres) in Hm.
    destruct Hm as [H1 H2]. split; [exact Hk|]. split; assumption.
  - intros [c [Hc [<- [Hk [H1 H2]]]]].
    exists (case_tuple (case_ids cases) c, if ws then sc_size c else SUnknown). split.
    + apply arms_for_in. exact (kept_keyed _ _ _ Hc Hk).
    + apply (case_pattern_matches val cases ws plen c Hc Hres). split; assumption.
Qed.

Lemma hit_in_order val cases ws plen c :
  In c cases -> case_matches val ws plen c ->
  In (sc_id c) (sort_dedup (map fst (keyed_of (case_ids cases) ws cases))).
Proof.
  intros Hc [Hk _]. apply sort_dedup_in. exact (in_map fst _ _ (kept_keyed _ _ _ Hc Hk)).
Qed.

Lemma first_arm_cases val cases ws plen :
  (forall id, In id (case_ids cases) -> val id <> None) ->
  match first_arm (map unw (map val (case_ids cases))) plen ws
                  (arms_of (keyed_of (case_ids cases) ws cases)) with
  | None => forall c, In c cases -> ~ case_matches val ws plen c
  | Some cid =>
      (exists c, In c cases /\ sc_id c = cid /\ case_matches val ws plen c) /\
      forall c', In c' cases -> case_matches val ws plen c' ->
                 sc_id c' = cid \/ str_ltb cid (sc_id c') = true
  end.
Proof.
  intros Hres. unfold arms_of. set (keyed := keyed_of (case_ids cases) ws cases).
  pose proof (first_arm_least (map unw (map val (case_ids cases))) plen ws (arms_for keyed) _
                              (sort_dedup_sorted (map fst keyed))) as H.
  unfold hit in H. subst keyed. destruct (first_arm _ _ _ _) as [cid|].
  - destruct H as (Hh & Hmin). split; [exact (proj1 (hit_spec _ _ _ _ _ Hres) Hh)|].
    intros c' Hc' Hm'. apply Hmin; [exact (hit_in_order _ _ _ _ _ Hc' Hm')|].
    apply (hit_spec _ _ _ _ _ Hres). eauto.
  - intros c Hc Hm. specialize (H _ (hit_in_order _ _ _ _ _ Hc Hm)).
    rewrite (proj2 (hit_spec _ _ _ _ _ Hres)) in H by eauto. discriminate.
Qed.

(** [self.id()] on the parent *)
Definition pval (fl : file) (d : decl) (pobj : list (string * value)) (id : string) : option N :=
  get_num fl (iter_fields fl d) (iter_constraints fl d) pobj id.

(** what the arm of child [cid] evaluates to: [ParentChild::cid(self.try_into()?)] *)
Definition arm_result (fuel : nat) (oc : bool) (fl : file) (sch : schema) (d : decl)
           (pobj : list (string * value)) (cid : string) : dres (option (string * value)) :=
  match lookup_decl fl cid with
  | Some c =>
      let* v := try_from_parent fuel oc fl sch c d pobj in
      Ok (Some (cid, v))
  | None => Panic UnwrapFail
  end.

Lemma arm_result_ok fuel oc fl sch d pobj cid r :
  arm_result fuel oc fl sch d pobj cid = Ok r ->
  exists cd v, lookup_decl fl cid = Some cd /\
               try_from_parent fuel oc fl sch cd d pobj = Ok v /\ r = Some (cid, v).
Proof.
  unfold arm_result. destruct (lookup_decl fl cid) as [cd|]; [|discriminate].
  destruct (try_from_parent fuel oc fl sch cd d pobj) as [v| | |] eqn:Et; cbn [bind]; intros H;
    try discriminate H.
  injection H as <-. exists cd, v. auto.
Qed.

Lemma rust_specialize_eq fuel oc fl sch d pobj :
  rust_specialize fuel oc fl sch d pobj =
  match specialize_plan fl sch d with
  | None => Panic UnwrapFail
  | Some plan =>
      if existsb (fun o => match o with None => true | Some _ => false end)
                 (map (pval fl d pobj) (sp_ids plan))
      then Panic UnwrapFail
      else
        match first_arm (map unw (map (pval fl d pobj) (sp_ids plan)))
                        (obj_payload_len pobj) (sp_with_size plan) (sp_arms plan) with
        | None => Ok None
        | Some cid => arm_result fuel oc fl sch d pobj cid
        end
  end.
Proof. reflexivity. Qed.

(** no accessor of a discriminant field hits its [unwrap] *)
Lemma all_resolved (val : string -> option N) (ids : list string) :
  existsb (fun o => match o with None => true | Some _ => false end) (map val ids) = false <->
  forall id, In id ids -> val id <> None.
Proof.
  induction ids as [|i ids IH]; cbn [map existsb]; [split; [intros _ id []|reflexivity]|].
  rewrite orb_false_iff, IH. split.
  - intros [H1 H2] id [<-|Hin]; [intros E; rewrite E in H1; discriminate | auto].
  - intros H. split; [|intros id Hin; apply H; right; exact Hin].
    destruct (val i) eqn:E; [reflexivity|]. destruct (H i (or_introl eq_refl) E).
Qed.

Lemma rust_specialize_cases fuel oc fl sch d pobj cases :
  all_cases fl sch d = Some cases ->
  check_cases (case_ids cases) true cases = true ->
  (forall id, In id (case_ids cases) -> pval fl d pobj id <> None) ->
  rust_specialize fuel oc fl sch d pobj =
  match first_arm (map unw (map (pval fl d pobj) (case_ids cases)))
                  (obj_payload_len pobj) (with_size_of cases)
                  (arms_of (keyed_of (case_ids cases) (with_size_of cases) cases)) with
  | None => Ok None
  | Some cid => arm_result fuel oc fl sch d pobj cid
  end.
Proof.
  intros Ha Hchk Hres. rewrite rust_specialize_eq, specialize_plan_eq, Ha, Hchk.
  cbn [negb sp_ids sp_with_size sp_arms].
  rewrite (proj2 (all_resolved _ _) Hres). reflexivity.
Qed.

Lemma rust_specialize_inv fuel oc fl sch d pobj :
  (forall r, rust_specialize fuel oc fl sch d pobj = Ok r ->
   exists cases, all_cases fl sch d = Some cases /\
                 check_cases (case_ids cases) true cases = true /\
                 (forall id, In id (case_ids cases) -> pval fl d pobj id <> None)).
Proof.
  intros r H. rewrite rust_specialize_eq, specialize_plan_eq in H.
  destruct (all_cases fl sch d) as [cases|]; [|discriminate].
  destruct (check_cases (case_ids cases) true cases) eqn:Hchk; cbn [negb] in H; [|discriminate].
  cbn [sp_ids sp_with_size sp_arms] in H.
  destruct (existsb _ (map (pval fl d pobj) (case_ids cases))) eqn:Ex; [discriminate|].
  exists cases. split; [reflexivity|]. split; [exact Hchk|]. exact (proj1 (all_resolved _ _) Ex).
Qed.

(** what [specialize_none], [specialize_some] and [specialize_exact] are read off *)
Lemma rust_specialize_run fuel oc fl sch d pobj cases :
  all_cases fl sch d = Some cases ->
  check_cases (case_ids cases) true cases = true ->
  (forall id, In id (case_ids cases) -> pval fl d pobj id <> None) ->
  let M := case_matches (pval fl d pobj) (with_size_of cases) (obj_payload_len pobj) in
  (rust_specialize fuel oc fl sch d pobj = Ok None /\ forall c, In c cases -> ~ M c) \/
  exists cid,
    rust_specialize fuel oc fl sch d pobj = arm_result fuel oc fl sch d pobj cid /\
    (exists c, In c cases /\ sc_id c = cid /\ M c) /\
    forall c', In c' cases -> M c' -> sc_id c' = cid \/ str_ltb cid (sc_id c') = true.
Proof.
  intros Ha Hchk Hres M. rewrite (rust_specialize_cases _ _ _ _ _ _ _ Ha Hchk Hres).
  pose proof (first_arm_cases _ _ (with_size_of cases) (obj_payload_len pobj) Hres) as Hf.
  destruct (first_arm _ _ _ _) as [cid|]; [right; exists cid | left]; auto.
Qed.

Theorem specialize_none fuel oc fl sch d pobj :
  rust_specialize fuel oc fl sch d pobj = Ok None ->
  exists cases,
    all_cases fl sch d = Some cases /\
    forall c, In c cases ->
              ~ case_matches (pval fl d pobj) (with_size_of cases) (obj_payload_len pobj) c.
Proof.
  intros H. destruct (rust_specialize_inv _ _ _ _ _ _ _ H) as (cases & Ha & Hchk & Hres).
  exists cases. split; [exact Ha|].
  destruct (rust_specialize_run fuel oc _ _ _ _ _ Ha Hchk Hres) as [[_ Hno]|(cid & E & _)];
    [exact Hno|].
  rewrite E in H. destruct (arm_result_ok _ _ _ _ _ _ _ _ H) as (? & ? & _ & _ & [=]).
Qed.

Theorem specialize_not_none fuel oc fl sch d pobj cases c :
  all_cases fl sch d = Some cases ->
  In c cases ->
  case_matches (pval fl d pobj) (with_size_of cases) (obj_payload_len pobj) c ->
  rust_specialize fuel oc fl sch d pobj <> Ok None.
Proof.
  intros Ha Hc Hm H. destruct (specialize_none _ _ _ _ _ _ H) as [cases' [Ha' Hno]].
  rewrite Ha in Ha'. injection Ha' as <-. exact (Hno c Hc Hm).
Qed.

Theorem specialize_some fuel oc fl sch d pobj cid v :
  rust_specialize fuel oc fl sch d pobj = Ok (Some (cid, v)) ->
  exists cases,
    all_cases fl sch d = Some cases /\
    (exists c, In c cases /\ sc_id c = cid /\
               case_matches (pval fl d pobj) (with_size_of cases) (obj_payload_len pobj) c) /\
    (forall c', In c' cases ->
                case_matches (pval fl d pobj) (with_size_of cases) (obj_payload_len pobj) c' ->
                sc_id c' = cid \/ str_ltb cid (sc_id c') = true) /\
    exists cd, lookup_decl fl cid = Some cd /\
               try_from_parent fuel oc fl sch cd d pobj = Ok v.
Proof.
  intros H. destruct (rust_specialize_inv _ _ _ _ _ _ _ H) as (cases & Ha & Hchk & Hres).
  exists cases. split; [exact Ha|].
  destruct (rust_specialize_run fuel oc _ _ _ _ _ Ha Hchk Hres)
    as [[E _]|(cid' & E & Hex & Hmin)]; rewrite E in H; [discriminate|].
  destruct (arm_result_ok _ _ _ _ _ _ _ _ H) as (cd & v' & El & Et & [= -> ->]). eauto 6.
Qed.

Theorem specialize_exact fuel oc fl sch d pobj cases c :
  all_cases fl sch d = Some cases ->
  check_cases (case_ids cases) true cases = true ->
  (forall id, In id (case_ids cases) -> pval fl d pobj id <> None) ->
  In c cases ->
  case_matches (pval fl d pobj) (with_size_of cases) (obj_payload_len pobj) c ->
  (forall c', In c' cases ->
              case_matches (pval fl d pobj) (with_size_of cases) (obj_payload_len pobj) c' ->
              sc_id c' = sc_id c \/ str_ltb (sc_id c) (sc_id c') = true) ->
  rust_specialize fuel oc fl sch d pobj = arm_result fuel oc fl sch d pobj (sc_id c).
Proof.
  intros Ha Hchk Hres Hc Hm Hmin.
  destruct (rust_specialize_run fuel oc _ _ _ _ _ Ha Hchk Hres)
    as [[_ Hno]|(cid & -> & (c0 & Hc0 & <- & Hm0) & Hmin0)]; [destruct (Hno c Hc Hm)|].
  (* [c0] and [c] are both least among the matching cases *)
  destruct (Hmin c0 Hc0 Hm0) as [E|Hlt]; [rewrite E; reflexivity|].
  destruct (Hmin0 c Hc Hm) as [E|Hlt']; [rewrite E; reflexivity|].
  rewrite (str_ltb_asym _ _ Hlt) in Hlt'. discriminate.
Qed.

(** [specialize()] never yields a child one of whose own constraints the parent's field
    values violate: what it returns is what [Child::try_from(&parent)] returns, which
    fails on a violated constraint. *)
Theorem specialize_respects_constraints fuel oc fl sch d pobj cid v c :
  rust_specialize fuel oc fl sch d pobj = Ok (Some (cid, v)) ->
  lookup_decl fl cid = Some c ->
  Forall (resolvable fl (iter_fields fl d) (iter_constraints fl d) pobj) (decl_constraints c) ->
  ~ Exists (violated fl (iter_fields fl d) (iter_constraints fl d) pobj) (decl_constraints c).
Proof.
  intros Hs Hl Hres Hex.
  destruct (specialize_some _ _ _ _ _ _ _ _ Hs) as (_ & _ & _ & _ & cd & El & Et).
  rewrite Hl in El. injection El as <-.
  rewrite (try_from_parent_constraint_error _ _ _ _ _ _ _ Hres Hex) in Et. discriminate.
Qed.

Definition same_keys (c1 c2 : spec_case) : Prop :=
  forall id, assoc id (sc_constraints c1) = None <-> assoc id (sc_constraints c2) = None.

Lemma tuple_eqb_holds val c1 c2 : forall ids,
    case_holds val c1 -> case_holds val c2 -> same_keys c1 c2 ->
    tuple_eqb (case_tuple ids c1) (case_tuple ids c2) = true.
Proof.
  intros ids H1 H2 Hk. unfold case_tuple.
  induction ids as [|i ids IH]; cbn [map tuple_eqb]; [reflexivity|].
  rewrite IH, andb_true_r.
  destruct (assoc i (sc_constraints c1)) as [x1|] eqn:E1;
    destruct (assoc i (sc_constraints c2)) as [x2|] eqn:E2; cbn [optN_eqb].
  - pose proof (H1 _ _ E1) as V1. pose proof (H2 _ _ E2) as V2.
    rewrite V1 in V2. inversion V2. apply N.eqb_refl.
  - apply (Hk i) in E2. congruence.
  - apply (Hk i) in E1. congruence.
  - reflexivity.
Qed.

Lemma check_cases_spec ids ws cases c1 c2 :
  check_cases ids ws cases = true -> In c1 cases -> In c2 cases ->
  tuple_eqb (case_tuple ids c1) (case_tuple ids c2) = true ->
  (ws = true -> size_eqb (sc_size c1) (sc_size c2) = true) ->
  sc_id c1 = sc_id c2.
Proof.
  intros Hchk Hc1 Hc2 Ht Hs. unfold check_cases in Hchk.
  rewrite forallb_forall in Hchk. specialize (Hchk c1 Hc1).
  rewrite forallb_forall in Hchk. specialize (Hchk c2 Hc2).
  rewrite Ht in Hchk. destruct ws; [rewrite (Hs eq_refl) in Hchk|]; apply String.eqb_eq; exact Hchk.
Qed.

Theorem determinacy val cases c1 c2 :
  with_size_of cases = false ->
  In c1 cases -> In c2 cases ->
  case_holds val c1 -> case_holds val c2 -> same_keys c1 c2 ->
  sc_id c1 = sc_id c2.
Proof.
  intros Hws Hc1 Hc2 H1 H2 Hk. unfold with_size_of in Hws. apply negb_false_iff in Hws.
  eapply check_cases_spec; try eassumption.
  - eapply tuple_eqb_holds; eassumption.
  - discriminate.
Qed.

Lemma size_eqb_refl s : size_eqb s s = true.
Proof. destruct s; cbn [size_eqb]; [apply N.eqb_refl | reflexivity | reflexivity]. Qed.

(** with sizes: the check the generator always makes *)
Theorem determinacy_sized val cases c1 c2 :
  check_cases (case_ids cases) true cases = true ->
  In c1 cases -> In c2 cases ->
  case_holds val c1 -> case_holds val c2 -> same_keys c1 c2 ->
  sc_size c1 = sc_size c2 ->
  sc_id c1 = sc_id c2.
Proof.
  intros Hchk Hc1 Hc2 H1 H2 Hk Hs.
  eapply check_cases_spec; try eassumption.
  - eapply tuple_eqb_holds; eassumption.
  - intros _. rewrite Hs. apply size_eqb_refl.
Qed.

(** the usual shape: every case constrains the same fields, sizes not needed *)
Theorem specialize_exactly_when fuel oc fl sch d pobj cases c :
  all_cases fl sch d = Some cases ->
  check_cases (case_ids cases) true cases = true ->
  with_size_of cases = false ->
  (forall c1 c2, In c1 cases -> In c2 cases -> same_keys c1 c2) ->
  (forall id, In id (case_ids cases) -> pval fl d pobj id <> None) ->
  In c cases -> sc_constraints c <> [] -> case_holds (pval fl d pobj) c ->
  rust_specialize fuel oc fl sch d pobj = arm_result fuel oc fl sch d pobj (sc_id c).
Proof.
  intros Ha Hchk Hws Hsame Hres Hc Hne Hh.
  apply (specialize_exact fuel oc fl sch d pobj cases c Ha Hchk Hres Hc).
  - split; [left; exact Hne|]. split; [exact Hh|]. rewrite Hws. intros E; discriminate.
  - intros c' Hc' [_ [Hh' _]]. left.
    exact (determinacy _ _ _ _ Hws Hc' Hc Hh' Hh (Hsame _ _ Hc' Hc)).
Qed.

(** A case holds or one of its constraints is violated (no excluded middle needed). *)
Lemma holds_or_witness val c :
  case_holds val c \/
  exists id x, assoc id (sc_constraints c) = Some x /\ val id <> Some x.
Proof.
  unfold case_holds. generalize (sc_constraints c). intros l.
  (* decided key by key; a key of [l] stands for its first binding *)
  assert (Hdec : forall keys,
             (forall id x, In id keys -> assoc id l = Some x -> val id = Some x) \/
             (exists id x, assoc id l = Some x /\ val id <> Some x)).
  { induction keys as [|k keys [IH|IH]]; [left; intros id x []| |right; exact IH].
    destruct (assoc k l) as [x|] eqn:Ea.
    - assert (Hd : val k = Some x \/ val k <> Some x).
      { destruct (val k) as [y|]; [destruct (N.eq_dec y x) as [->|]|]; [left | right..]; congruence. }
      destruct Hd as [Ev|Hne]; [|right; exists k, x; auto].
      left. intros id x' [<-|Hin] Ha; [congruence | exact (IH id x' Hin Ha)].
    - left. intros id x' [<-|Hin] Ha; [congruence | exact (IH id x' Hin Ha)]. }
  destruct (Hdec (map fst l)) as [H|H]; [left|right; exact H].
  intros id x Ha. exact (H id x (assoc_in_keys _ _ _ Ha) Ha).
Qed.

Lemma not_holds_witness val c :
  ~ case_holds val c ->
  exists id x, assoc id (sc_constraints c) = Some x /\ val id <> Some x.
Proof. intros Hn. destruct (holds_or_witness val c) as [H|H]; [contradiction | exact H]. Qed.

Lemma kept_or_not ws c :
  case_kept ws c \/ (sc_constraints c = [] /\ (ws = false \/ sc_size c = SUnknown)).
Proof.
  unfold case_kept. destruct (sc_constraints c); [|left; left; discriminate].
  destruct ws; [|auto]. destruct (sc_size c); [| |auto]; left; right; split; congruence.
Qed.

Lemma size_holds_or_not ws plen c :
  size_holds ws plen c \/ (ws = true /\ exists n, sc_size c = SStatic n /\ plen <> n / 8).
Proof.
  unfold size_holds. destruct ws; [|left; discriminate].
  destruct (sc_size c) as [n| |]; [|left; discriminate..].
  destruct (N.eq_dec plen (n / 8)) as [E|Hne]; [|right; eauto].
  left. intros _ s [= <-]. exact E.
Qed.

(** [specialize_none] with each case traced back to the declaration it was gathered from
    ([all_cases_spec]) and the reason it does not match. *)
Theorem specialize_none_subtree fuel oc fl sch d pobj :
  rust_specialize fuel oc fl sch d pobj = Ok None ->
  exists cases,
    all_cases fl sch d = Some cases /\
    forall k kid env s,
      In k (iter_children fl d) -> decl_id k = Some kid ->
      subtree_case fl sch (data_fields fl d) k [] env s ->
      (env = [] /\ (with_size_of cases = false \/ s = SUnknown)) \/
      (exists id x, assoc id env = Some x /\ pval fl d pobj id <> Some x) \/
      (with_size_of cases = true /\
       exists n, s = SStatic n /\ obj_payload_len pobj <> n / 8).
Proof.
  intros H. destruct (specialize_none _ _ _ _ _ _ H) as [cases [Ha Hno]].
  exists cases. split; [exact Ha|]. intros k kid env s Hk Hid Hsub.
  assert (Hc : In (mkCase kid env s) cases).
  { apply (all_cases_spec _ _ _ _ Ha). exists k. auto. }
  specialize (Hno _ Hc). unfold case_matches in Hno. cbn [sc_constraints sc_size] in *.
  destruct (kept_or_not (with_size_of cases) (mkCase kid env s)) as [Hkept|Hnot]; [|auto].
  destruct (holds_or_witness (pval fl d pobj) (mkCase kid env s)) as [Hh|Hw]; [|auto].
  destruct (size_holds_or_not (with_size_of cases) (obj_payload_len pobj) (mkCase kid env s))
    as [Hs|Hs]; [|auto].
  destruct (Hno (conj Hkept (conj Hh Hs))).
Qed.

Module Example.
  Definition fS id w := mkField (Scalar id w) None.
  Definition fP := mkField (Payload None) None.
  Definition cst id v := mkConstr id (Some v) None.

  (** packet P { k : 8, _payload_ }   packet A : P (k = 1) { a : 8 }
      packet B : P (k = 2) { m : 8, _payload_ }   packet BA : B (m = 7) { z : 8 } *)
  Definition P := DPacket "P" [] [fS "k" 8; fP] None.
  Definition A := DPacket "A" [cst "k" 1] [fS "a" 8] (Some "P").
  Definition B := DPacket "B" [cst "k" 2] [fS "m" 8; fP] (Some "P").
  Definition BA := DPacket "BA" [cst "m" 7] [fS "z" 8] (Some "B").
  Definition fl := mkFile LittleEndian [P; A; B; BA].
  Definition sch := match mk_schema fl with Some s => s | None => [] end.
  Definition pobj (k : N) (pl : list N) : list (string * value) :=
    [("k", VNum k); ("payload", VList (map VNum pl))].

  Definition cases :=
    [mkCase "A" [("k", 1)] (SStatic 8);
     mkCase "B" [("k", 2)] (SStatic 8);     (* BA: [m = 7] is not a field of P *)
     mkCase "B" [("k", 2)] SUnknown].

  Example cases_ok : all_cases fl sch P = Some cases.
  Proof. vm_compute. reflexivity. Qed.

  Example accepted : check_cases (case_ids cases) true cases = true /\ with_size_of cases = false.
  Proof. vm_compute. split; reflexivity. Qed.

  Example uniform c1 c2 : In c1 cases -> In c2 cases -> same_keys c1 c2.
  Proof.
    intros H1 H2 id. cbn [cases In] in H1, H2.
    destruct H1 as [<-|[<-|[<-|[]]]]; destruct H2 as [<-|[<-|[<-|[]]]];
      cbn [sc_constraints assoc]; destruct (String.eqb id "k"); split; intros E; congruence.
  Qed.

  Example run_A : rust_specialize 10 false fl sch P (pobj 1 [5])
                  = Ok (Some ("A", VObj [("a", VNum 5)])).
  Proof. vm_compute. reflexivity. Qed.
  Example run_B : rust_specialize 10 false fl sch P (pobj 2 [7; 9])
                  = Ok (Some ("B", VObj [("payload", VList [VNum 9]); ("m", VNum 7)])).
  Proof. vm_compute. reflexivity. Qed.
  Example run_none : rust_specialize 10 false fl sch P (pobj 3 [7; 9]) = Ok None.
  Proof. vm_compute. reflexivity. Qed.
  Example run_err : rust_specialize 10 false fl sch P (pobj 1 [7; 9]) = Err TrailingBytesError.
  Proof. vm_compute. reflexivity. Qed.
  (** second level: B specializes to BA on its own field m *)
  Example run_BA :
    rust_specialize 10 false fl sch B [("k", VNum 2); ("m", VNum 7); ("payload", VList [VNum 9])]
    = Ok (Some ("BA", VObj [("z", VNum 9)])).
  Proof. vm_compute. reflexivity. Qed.

  Example none_applies c :
    In c cases -> ~ case_matches (pval fl P (pobj 3 [7; 9])) false 2 c.
  Proof.
    intros Hc. destruct (specialize_none _ _ _ _ _ _ run_none) as [cs [Ha Hno]].
    rewrite cases_ok in Ha. inversion Ha; subst cs.
    rewrite (proj2 accepted) in Hno. exact (Hno c Hc).
  Qed.

  Example some_applies :
    exists c, In c cases /\ sc_id c = "B" /\
              case_matches (pval fl P (pobj 2 [7; 9])) false 2 c.
  Proof.
    destruct (specialize_some _ _ _ _ _ _ _ _ run_B) as [cs [Ha [Hex _]]].
    rewrite cases_ok in Ha. inversion Ha; subst cs.
    rewrite (proj2 accepted) in Hex. exact Hex.
  Qed.

  (** "exactly when" for every value of k: k = 2 runs B's conversion whatever the payload *)
  Example exactly_when_applies pl :
    rust_specialize 10 false fl sch P (pobj 2 pl) = arm_result 10 false fl sch P (pobj 2 pl) "B".
  Proof.
    apply (specialize_exactly_when 10 false fl sch P (pobj 2 pl) cases
                                   (mkCase "B" [("k", 2)] SUnknown) cases_ok
                                   (proj1 accepted) (proj2 accepted) uniform).
    - intros id Hin. vm_compute in Hin. destruct Hin as [<-|[]]. vm_compute. discriminate.
    - right; right; left; reflexivity.
    - discriminate.
    - intros id x. cbn [sc_constraints assoc].
      destruct (String.eqb id "k") eqn:E; [|discriminate].
      apply String.eqb_eq in E. subst id. intros Hx. inversion Hx. vm_compute. reflexivity.
  Qed.

  Example subtree_applies :
    exists k, In k (iter_children fl P) /\ decl_id k = Some "B" /\
              subtree_case fl sch (data_fields fl P) k [] [("k", 2)] (SStatic 8).
  Proof.
    exact (proj1 (all_cases_spec fl sch P cases cases_ok (mkCase "B" [("k", 2)] (SStatic 8)))
                 (or_intror (or_introl eq_refl))).
  Qed.
End Example.

(** Determinacy FAILS when siblings constrain different fields: the generator's check
    compares whole tuples, [(Some 1, None)] and [(None, Some 2)] differ, so it accepts;
    both patterns [(1, _)] and [(_, 2)] match [k = 1, j = 2] and the first child in name
    order wins, although the value is a legal [Y] as well. *)
Module Overlap.
  Import Example.
  Definition P := DPacket "P" [] [fS "k" 8; fS "j" 8; fP] None.
  Definition X := DPacket "X" [cst "k" 1] [fS "a" 8] (Some "P").
  Definition Y := DPacket "Y" [cst "j" 2] [fS "b" 8] (Some "P").
  Definition fl := mkFile LittleEndian [P; Y; X].
  Definition sch := match mk_schema fl with Some s => s | None => [] end.
  Definition pobj : list (string * value) :=
    [("k", VNum 1); ("j", VNum 2); ("payload", VList [VNum 5])].

  Definition cases :=
    [mkCase "Y" [("j", 2)] (SStatic 8); mkCase "X" [("k", 1)] (SStatic 8)].

  Example overlap_counter_example :
    all_cases fl sch P = Some cases /\
    check_cases (case_ids cases) true cases = true /\ with_size_of cases = false /\
    case_matches (pval fl P pobj) false 1 (mkCase "X" [("k", 1)] (SStatic 8)) /\
    case_matches (pval fl P pobj) false 1 (mkCase "Y" [("j", 2)] (SStatic 8)) /\
    rust_specialize 10 false fl sch P pobj = Ok (Some ("X", VObj [("a", VNum 5); ("j", VNum 2)])) /\
    try_from_parent 10 false fl sch Y P pobj = Ok (VObj [("b", VNum 5); ("k", VNum 1)]).
  Proof.
    split; [vm_compute; reflexivity|]. split; [vm_compute; reflexivity|].
    split; [vm_compute; reflexivity|].
    assert (Hm : forall cid id v,
               pval fl P pobj id = Some v ->
               case_matches (pval fl P pobj) false 1 (mkCase cid [(id, v)] (SStatic 8))).
    { intros cid id v Hv. split; [left; discriminate|]. split; [|discriminate].
      intros id' x. cbn [sc_constraints assoc]. destruct (String.eqb id' id) eqn:E; [|discriminate].
      apply String.eqb_eq in E. subst id'. intros Hx. inversion Hx; subst x. exact Hv. }
    split; [apply Hm; vm_compute; reflexivity|]. split; [apply Hm; vm_compute; reflexivity|].
    split; vm_compute; reflexivity.
  Qed.
End Overlap.

(** A child that constrains no field of the parent gets no arm at all when sizes are not
    needed to tell the children apart: its case is [(_, ..., _)] with size [Unknown] and
    the generator drops it, so [specialize()] answers [None] although
    [Child::try_from(&parent)] succeeds.  (This is the one way a gathered case can "match"
    vacuously and still be skipped: [case_kept].) *)
Module Unconstrained.
  Import Example.
  Definition P := DPacket "P" [] [fS "k" 8; fP] None.
  Definition C := DPacket "C" [] [fS "a" 8] (Some "P").
  Definition fl := mkFile LittleEndian [P; C].
  Definition sch := match mk_schema fl with Some s => s | None => [] end.
  Definition pobj : list (string * value) := [("k", VNum 1); ("payload", VList [VNum 5])].

  Example unconstrained_child_skipped :
    all_cases fl sch P = Some [mkCase "C" [] (SStatic 8)] /\
    specialize_plan fl sch P = Some (mkPlan [] false []) /\
    rust_specialize 10 false fl sch P pobj = Ok None /\
    try_from_parent 10 false fl sch C P pobj = Ok (VObj [("a", VNum 5); ("k", VNum 1)]).
  Proof. repeat split; vm_compute; reflexivity. Qed.
End Unconstrained.

Print Assumptions all_cases_spec.
Print Assumptions specialize_none.
Print Assumptions specialize_not_none.
Print Assumptions specialize_some.
Print Assumptions specialize_exact.
Print Assumptions determinacy.
Print Assumptions determinacy_sized.
Print Assumptions specialize_exactly_when.
Print Assumptions specialize_none_subtree.
Print Assumptions not_holds_witness.
Print Assumptions Example.exactly_when_applies.
Print Assumptions Overlap.overlap_counter_example.
Print Assumptions Unconstrained.unconstrained_child_skipped.
