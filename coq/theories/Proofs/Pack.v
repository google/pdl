(** The bit-field group.  The encoder keeps a list of pending (value, Rust type width,
    shift) entries and ORs their casts and shifts together when the group closes
    ([pack_bit_fields], written by [put_chunk]); the reference keeps a running LSB-first
    sum.  [packed] relates the two, one field at a time. *)
From Coq Require Import NArith List Lia.
From Coq Require Import Strings.Byte.
From PDL Require Import Base.Bits Base.Outcome Lang.Ast Rust.Enum Sem.RefEncode Rust.Encode Proofs.GenPre.
Import ListNotations.
Open Scope N_scope.

(** [packed p acc bits]: the entries [p] occupy the low [bits] bits and OR together to
    [acc], in any chunk type that is wide enough. *)
Definition packed (p : pending) (acc bits : N) : Prop :=
  acc < 2 ^ bits /\ forall cw, bits <= cw -> pack_value cw p = acc.

Lemma packed_nil bits : packed [] 0 bits.
Proof. split; [apply pow2_pos | reflexivity]. Qed.

Lemma packed_0 p acc : packed p acc 0 -> acc = 0.
Proof. intros [H _]. now apply N.lt_1_r. Qed.

Lemma mod_pow2_small v w tw : v < 2 ^ w -> w <= tw -> v mod 2 ^ tw = v.
Proof. intros Hv Hle. apply N.mod_small. eapply N.lt_le_trans; [exact Hv | now apply pow2_le_mono]. Qed.

(** The step everything rests on: the new entry lies above the [bits] bits in use, so
    its cast and its mask are the identity and OR is addition. *)
Lemma packed_push p acc bits v w tw :
  packed p acc bits -> v < 2 ^ w -> w <= tw ->
  packed (p ++ [(v, tw, bits)])%list (acc + v * 2 ^ bits) (bits + w).
Proof.
  intros [Hacc Hpack] Hv Htw. split; [now apply sum_lt_pow|].
  intros cw Hcw. unfold pack_value. rewrite fold_left_app. cbn [fold_left].
  fold (pack_value cw p). rewrite Hpack by (eapply N.le_trans; [apply N.le_add_r | exact Hcw]).
  rewrite (mod_pow2_small v w tw Hv Htw).
  rewrite (N.mod_small (N.shiftl v bits)); [now apply lor_shiftl_add|].
  rewrite N.shiftl_mul_pow2.
  eapply N.lt_le_trans; [exact (sum_lt_pow 0 v bits w (pow2_pos bits) Hv) | now apply pow2_le_mono].
Qed.

Lemma packed_skip p acc bits w : packed p acc bits -> packed p acc (bits + w).
Proof.
  intros [Hacc Hpack]. split.
  - eapply N.lt_le_trans; [exact Hacc|]. apply pow2_le_mono, N.le_add_r.
  - intros cw Hcw. apply Hpack. eapply N.le_trans; [apply N.le_add_r | exact Hcw].
Qed.

Lemma bytes_E_length e n v : List.length (bytes_E e n v) = n.
Proof. destruct e; [apply le_bytes_length | apply be_bytes_length]. Qed.

Lemma put_chunk_length fl bits v : List.length (put_chunk fl bits v) = N.to_nat (bits / 8).
Proof. apply bytes_E_length. Qed.

Lemma put_chunk_small fl w n :
  n < 2 ^ w -> put_chunk fl w n = bytes_E (f_endian fl) (nbytes w) n.
Proof. intros Hn. unfold put_chunk, Encode.E. now rewrite N.mod_small. Qed.

Lemma rev_zeros n : rev (zeros n) = zeros n.
Proof.
  induction n as [|n IH]; [reflexivity|]. cbn [zeros rev]. rewrite IH. clear.
  induction n as [|n IH]; [reflexivity|]. cbn [zeros app]. now rewrite IH.
Qed.

Lemma bytes_E_0 e n : bytes_E e n 0 = zeros n.
Proof.
  assert (L : le_bytes n 0 = zeros n).
  { induction n as [|n IH]; [reflexivity|]. cbn [le_bytes zeros]. now rewrite N.div_0_l, IH. }
  unfold bytes_E, be_bytes. rewrite L, rev_zeros. now destruct e.
Qed.

Lemma pack_bit_fields_packed fl p acc bits cw :
  packed p acc bits -> integer_width bits = Some cw ->
  pack_bit_fields fl p bits = Ok (bytes_E (f_endian fl) (nbytes bits) acc).
Proof.
  intros [Hacc Hpack] Ecw. specialize (Hpack cw (proj1 (integer_width_bounds _ _ Ecw))).
  unfold pack_bit_fields. rewrite Ecw. destruct p.
  - rewrite <- Hpack. now rewrite bytes_E_0.
  - now rewrite Hpack, put_chunk_small.
Qed.

(** A packed chunk fits its chunk type whatever the pending values are: a value out of
    range cannot spill into a neighbouring group. *)
Lemma pack_value_lt cw (p : pending) : pack_value cw p < 2 ^ cw.
Proof.
  induction p as [|[[v tw] sh] p IH] using rev_ind; [apply pow2_pos|].
  unfold pack_value in *. rewrite fold_left_app. cbn [fold_left].
  apply lor_lt_pow2; [exact IH|]. apply N.mod_lt, N.pow_nonzero. discriminate.
Qed.

(** A group as the reference sees it: (value, declared width) LSB first. *)
Fixpoint group_sum (fs : list (N * N)) (sh : N) : N :=
  match fs with
  | [] => 0
  | (v, w) :: rest => v * 2 ^ sh + group_sum rest (sh + w)
  end.

Fixpoint group_bits (fs : list (N * N)) : N :=
  match fs with
  | [] => 0
  | (_, w) :: rest => w + group_bits rest
  end.

Definition group_ok (fs : list (N * N)) : Prop := Forall (fun p => fst p < 2 ^ snd p) fs.

Lemma group_sum_shift fs sh : group_sum fs sh = group_sum fs 0 * 2 ^ sh.
Proof.
  revert sh. induction fs as [|[v w] rest IH]; intros sh; cbn [group_sum]; [reflexivity|].
  rewrite (IH (sh + w)), (IH (0 + w)), N.add_0_l, N.pow_0_r, N.pow_add_r. lia.
Qed.

Lemma group_sum_app a b sh :
  group_sum (a ++ b) sh = group_sum a sh + group_sum b (sh + group_bits a).
Proof.
  revert sh. induction a as [|[v w] a IH]; intros sh; cbn [app group_sum group_bits].
  - now rewrite N.add_0_r.
  - now rewrite IH, N.add_assoc, N.add_assoc.
Qed.

Lemma group_sum_lt fs : group_ok fs -> group_sum fs 0 < 2 ^ group_bits fs.
Proof.
  induction 1 as [|[v w] rest Hv _ IH]; cbn [group_sum group_bits]; [reflexivity|].
  rewrite group_sum_shift, N.pow_0_r, N.mul_1_r, N.add_0_l. now apply sum_lt_pow.
Qed.

Lemma extract_group_sum pre v w post :
  group_ok pre -> v < 2 ^ w -> group_ok post ->
  extract (group_bits pre) w (group_sum (pre ++ (v, w) :: post) 0 ) = v.
Proof.
  intros Hpre Hv Hpost. rewrite group_sum_app. cbn [group_sum].
  rewrite (group_sum_shift post), N.add_0_l, N.pow_add_r.
  replace (v * 2 ^ group_bits pre + group_sum post 0 * (2 ^ group_bits pre * 2 ^ w))
    with ((v + group_sum post 0 * 2 ^ w) * 2 ^ group_bits pre) by lia.
  rewrite extract_add_low by now apply group_sum_lt.
  pose proof (pow2_pos w). rewrite N.mod_add by lia. now apply N.mod_small.
Qed.

(** the pending list the encoder builds for a whole group of (value, width, Rust type
    width) triples *)
Fixpoint pending_of (fs : list (N * N * N)) (sh : N) : pending :=
  match fs with
  | [] => []
  | (v, w, tw) :: rest => (v, tw, sh) :: pending_of rest (sh + w)
  end.

Definition entry_ok (e : N * N * N) : Prop :=
  fst (fst e) < 2 ^ snd (fst e) /\ snd (fst e) <= snd e.

Definition strip (fs : list (N * N * N)) : list (N * N) := map (fun '(v, w, _) => (v, w)) fs.

Lemma packed_pending fs : forall p acc sh,
  Forall entry_ok fs -> packed p acc sh ->
  packed (p ++ pending_of fs sh)%list (acc + group_sum (strip fs) sh) (sh + group_bits (strip fs)).
Proof.
  induction fs as [|[[v w] tw] rest IH]; intros p acc sh Hok Hp;
    cbn [pending_of strip map group_sum group_bits].
  - now rewrite app_nil_r, !N.add_0_r.
  - inversion Hok as [|? ? [Hv Htw] Hrest]; subst.
    change (p ++ (v, tw, sh) :: pending_of rest (sh + w))%list
      with (p ++ [(v, tw, sh)] ++ pending_of rest (sh + w))%list.
    rewrite app_assoc, !N.add_assoc.
    exact (IH _ _ _ Hrest (packed_push _ _ _ _ _ _ Hp Hv Htw)).
Qed.

Lemma pack_value_sum (fs : list (N * N * N)) sh cw :
  Forall entry_ok fs ->
  sh + group_bits (strip fs) <= cw ->
  pack_value cw (pending_of fs sh) = group_sum (strip fs) sh.
Proof.
  intros Hok. exact (proj2 (packed_pending fs [] 0 sh Hok (packed_nil sh)) cw).
Qed.

Lemma put_chunk_group fl (fs : list (N * N * N)) cw :
  Forall entry_ok fs ->
  group_bits (strip fs) <= cw ->
  put_chunk fl (group_bits (strip fs)) (pack_value cw (pending_of fs 0)) =
  bytes_E (f_endian fl) (nbytes (group_bits (strip fs))) (group_sum (strip fs) 0).
Proof.
  intros Hok Hcw. destruct (packed_pending fs [] 0 0 Hok (packed_nil 0)) as [Hlt Hpack].
  cbn [app] in Hpack. rewrite !N.add_0_l in *. rewrite (Hpack cw Hcw). now apply put_chunk_small.
Qed.
