(** The emitted ENCODER of a whole declaration never panics at run time.
    [enc_fields_all_nrp] speaks of the field walk of ONE declaration, given that the
    encoders it calls do not panic.  By induction on the fuel of [rust_enc_decl] they do
    not: [rec_enc] is [rust_encode] at the fuel that is left and only reaches declarations
    of the file, and the parent step passes the child's own bytes as the parent's
    [payload_act].  The side condition [arith_free] is asked of every declaration of the
    file.  [Diverge] (fuel 0) and the generator kinds ([Panic UnwrapFail] for an ill-typed
    value or when [len_fields] gives nothing, [Panic GenAssert] for a custom field whose
    width [integer_width] refuses) are tolerated by [no_rt_panic]. *)
From Coq Require Import NArith List String.
From Coq Require Import Strings.Byte.
From PDL Require Import Base.Outcome Lang.Ast Lang.Sexp Analyzer.Schema Sem.RefEncode Rust.Encode
     Proofs.DecodeSafe Proofs.EncodeEqns Proofs.EncodedLen Proofs.EncodeSafeAll Proofs.ListFacts.
Import ListNotations.
Open Scope N_scope.

Definition arith_free_file (fl : file) : bool :=
  forallb (fun d => forallb arith_free (decl_fields d)) (f_decls fl).

Lemma rust_encode_nrp_of fuel fl sch :
  (forall d all_fields cs obj pa ps, In d (f_decls fl) -> no_rt_panic pa ->
     no_rt_panic (rust_enc_decl fuel fl sch d all_fields cs obj pa ps)) ->
  forall id v, no_rt_panic (rust_encode fuel fl sch id v).
Proof.
  intros Hd id v. destruct (rust_top_spec fuel fl sch id v) as [v k n Hk| |d o pl Hl _ _];
    [exact Hk|exact I|]. apply Hd; [exact (lookup_decl_In _ _ _ Hl)|exact I].
Qed.

Theorem rust_enc_decl_nrp : forall fuel fl sch d all_fields cs obj payload_act payload_size,
  arith_free_file fl = true ->
  In d (f_decls fl) ->
  no_rt_panic payload_act ->
  no_rt_panic (rust_enc_decl fuel fl sch d all_fields cs obj payload_act payload_size).
Proof.
  intros fuel fl sch d all_fields cs obj pa ps Hfl. revert sch d all_fields cs obj pa ps.
  induction fuel as [|fuel IH]; intros sch d all_fields cs obj pa ps Hin Hpa; [exact I|].
  assert (Hown : no_rt_panic (enc_fields fl sch (rust_encode fuel fl sch) (rust_len_top fuel fl sch) d
                                         all_fields cs obj pa ps (decl_fields d) [] 0)).
  { apply enc_fields_all_nrp; [apply rust_encode_nrp_of, IH|exact Hpa|].
    apply forallb_forall. intros f. exact (forallb_decl_fields arith_free fl d f Hfl Hin). }
  rewrite rust_enc_decl_S. cbv zeta.
  destruct (get_parent fl d) as [p|] eqn:Hp; [|exact Hown].
  destruct (len_fields _ _ _ _ _ _ _ _); [|reflexivity].
  exact (IH sch p all_fields cs obj _ _ (get_parent_In fl d p Hp) Hown).
Qed.

Theorem rust_encode_nrp : forall fuel fl sch id v,
  arith_free_file fl = true -> no_rt_panic (rust_encode fuel fl sch id v).
Proof.
  intros fuel fl sch id v Hfl. apply rust_encode_nrp_of. intros. now apply rust_enc_decl_nrp.
Qed.

(** The side condition is needed: a file with a 64-bit size field, reached through the
    parent step of the child's encoder, panics with a run-time kind. *)
Open Scope string_scope.

Definition bad_file : file :=
  mkFile LittleEndian
    [DPacket "P" [] [lfld (Size "_payload_" 64); lfld (Payload None)] None;
     DPacket "Q" [] [lfld (Scalar "q" 8)] (Some "P")].

Example side_condition_needed :
  arith_free_file bad_file = false /\
  exists sch, mk_schema bad_file = Some sch /\
    rust_encode 5 bad_file sch "Q" (VObj [("q", VNum 1)]) = Panic ArithOverflow.
Proof. split; [reflexivity|]. eexists. split; reflexivity. Qed.

(** the file and value of [EncodedLen.len_example] *)
Example len_file_arith_free : arith_free_file len_file = true.
Proof. reflexivity. Qed.

Example len_file_encodes :
  exists sch, mk_schema len_file = Some sch /\
    rust_encode 5 len_file sch "Q" len_value
      = Ok [x15; x02; x03; x02; x02; x01; x04; x03; x01; x00; x00; x00; x34; x12; x07; x00; x09; x07; x02].
Proof. destruct len_example as (sch & d & Hmk & _ & _ & _ & _ & He & _). exists sch. split; assumption. Qed.

Example len_file_never_panics fuel sch id v :
  no_rt_panic (rust_encode fuel len_file sch id v).
Proof. apply rust_encode_nrp. exact len_file_arith_free. Qed.

Example len_file_child_never_panics fuel sch d obj pl :
  lookup_decl len_file "Q" = Some d ->
  no_rt_panic (rust_enc_decl fuel len_file sch d (iter_fields len_file d)
                 (iter_constraints len_file d) obj (Ok pl) (len pl)).
Proof.
  intros Hl. apply rust_enc_decl_nrp; [exact len_file_arith_free|exact (lookup_decl_In _ _ _ Hl)|exact I].
Qed.

(** [EncodedLen.dyn_file]: the recursion through [rec_enc] is exercised *)
Example dyn_file_never_panics fuel sch id v :
  arith_free_file dyn_file = true /\ no_rt_panic (rust_encode fuel dyn_file sch id v).
Proof. split; [reflexivity|]. apply rust_encode_nrp. reflexivity. Qed.

Print Assumptions rust_enc_decl_nrp.
Print Assumptions rust_encode_nrp.
Print Assumptions side_condition_needed.
Print Assumptions len_file_never_panics.
