(** Laws of the provided [Packet] methods, for every implementation of the required ones. *)
From Coq Require Import List Bool.
From Coq Require Import Strings.Byte.
From PDL Require Import Base.Outcome Rust.Decode Rust.Encode Rust.Runtime.
Import ListNotations.

Section Laws.
  Variable T : Type.
  Variable decode : list byte -> dres (T * list byte).
  Variable encode_bytes : T -> eres (list byte).

  Lemma decode_full_ok_iff b p :
    decode_full T decode b = Ok p <-> decode b = Ok (p, []).
  Proof.
    unfold decode_full, bind. destruct (decode b) as [[q r]| | |]; try (split; discriminate).
    destruct r as [|x r].
    - split; intros H; inversion H; reflexivity.
    - split; intros H; inversion H.
  Qed.

  Lemma decode_full_trailing b p r :
    decode b = Ok (p, r) -> r <> [] -> decode_full T decode b = Err TrailingBytesError.
  Proof.
    intros H Hr. unfold decode_full, bind. rewrite H. destruct r; [congruence|reflexivity].
  Qed.

  Lemma decode_full_err b e :
    decode b = Err e -> decode_full T decode b = Err e.
  Proof. intros H. unfold decode_full, bind. now rewrite H. Qed.

  Lemma decode_full_total b :
    returns (decode b) -> returns (decode_full T decode b).
  Proof.
    unfold decode_full, bind. destruct (decode b) as [[q r]| | |]; simpl; intros H; try exact H.
    destruct r; exact I.
  Qed.

  Lemma decode_mut_ok b p r :
    decode b = Ok (p, r) -> decode_mut T decode b = (Ok p, r).
  Proof. intros H. unfold decode_mut. now rewrite H. Qed.

  Lemma decode_mut_err_untouched b e :
    decode b = Err e -> decode_mut T decode b = (Err e, b).
  Proof. intros H. unfold decode_mut. now rewrite H. Qed.

  Lemma decode_mut_commit b :
    match decode b with
    | Ok (p, r) => decode_mut T decode b = (Ok p, r)
    | _ => snd (decode_mut T decode b) = b
    end.
  Proof. unfold decode_mut. destruct (decode b) as [[p r]| | |]; reflexivity. Qed.

  Lemma encode_same_bytes v :
    encode_to_vec T encode_bytes v = encode_to_bytes T encode_bytes v
    /\ encode_to_vec T encode_bytes v = encode_bytes v.
  Proof.
    split; [reflexivity|]. unfold encode_to_vec, encode, bind. destruct (encode_bytes v); reflexivity.
  Qed.

  Lemma encode_appends v buf bs :
    encode_to_vec T encode_bytes v = Ok bs ->
    encode T encode_bytes v buf = Ok (buf ++ bs).
  Proof.
    unfold encode_to_vec, encode, bind. destruct (encode_bytes v); try discriminate.
    simpl. intros H. inversion H. reflexivity.
  Qed.

  Lemma encode_fails_alike v buf e :
    encode_to_vec T encode_bytes v = Err e -> encode T encode_bytes v buf = Err e.
  Proof.
    unfold encode_to_vec, encode, bind. destruct (encode_bytes v); try discriminate.
    intros H; exact H.
  Qed.
End Laws.
