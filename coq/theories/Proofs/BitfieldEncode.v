(** What the proofs about encoding share: lengths and segments, the class [bf_field] of
    bit-field declarations (scalars, enum typedefs, fixed fields, reserved bits), and
    what it means for the emitted encoder to agree with the reference ([good]). *)
From Coq Require Import NArith List Bool.
From Coq Require Import Strings.Byte.
From PDL Require Import Base.Bits Base.Outcome Lang.Ast Lang.Sexp Analyzer.Schema Rust.Enum Sem.RefEncode
     Rust.Encode.
From PDL Require Import Proofs.EncodeEqns.
Import ListNotations.
Open Scope N_scope.

Lemma len_app {A} (a b : list A) : len (a ++ b) = len a + len b.
Proof. unfold len. rewrite app_length. apply Nat2N.inj_add. Qed.

Lemma len_cons {A} (x : A) (l : list A) : len (x :: l) = 1 + len l.
Proof. unfold len. cbn [List.length]. rewrite Nat2N.inj_succ. symmetry. apply N.add_1_l. Qed.

Lemma len_map {A B} (f : A -> B) l : len (map f l) = len l.
Proof. unfold len. now rewrite map_length. Qed.

Lemma nbytes_N bits : N.of_nat (nbytes bits) = bits / 8.
Proof. apply N2Nat.id. Qed.

Lemma zeros_len k : len (zeros k) = N.of_nat k.
Proof.
  induction k as [|k IH]; [reflexivity|]. cbn [zeros]. now rewrite len_cons, IH, Nat2N.inj_succ, N.add_1_l.
Qed.

Lemma render_app e a b : render e (a ++ b) = (render e a ++ render e b)%list.
Proof. unfold render. now rewrite map_app, concat_app. Qed.

Lemma render_cons e s ss : render e (s :: ss) = (render_seg e s ++ render e ss)%list.
Proof. reflexivity. Qed.

Lemma render_single e s : render e [s] = render_seg e s.
Proof. apply app_nil_r. Qed.

Lemma render_raw e bs : render e [raw_seg bs] = bs.
Proof. rewrite render_single. now destruct e. Qed.

Lemma render_int_seg e n v : render_seg e (int_seg n v) = bytes_E e n v.
Proof. now destruct e. Qed.

Lemma render_int e n v : render e [int_seg n v] = bytes_E e n v.
Proof. now rewrite render_single, render_int_seg. Qed.

Lemma seg_len_app a b : seg_len (a ++ b) = seg_len a + seg_len b.
Proof. unfold seg_len. rewrite map_app, concat_app. apply len_app. Qed.

Lemma seg_len_single bs i : seg_len [(bs, i)] = len bs.
Proof. unfold seg_len. cbn [map fst List.concat]. now rewrite app_nil_r. Qed.

Lemma seg_len_int n v : seg_len [int_seg n v] = N.of_nat n.
Proof. unfold int_seg. rewrite seg_len_single. unfold len. now rewrite le_bytes_length. Qed.

Lemma seg_len_raw_zeros k : seg_len [raw_seg (zeros k)] = N.of_nat k.
Proof. unfold raw_seg. now rewrite seg_len_single, zeros_len. Qed.

Lemma seg_len_int_bits w v : w mod 8 = 0 -> 8 * seg_len [int_seg (nbytes w) v] = w.
Proof. intros Hm. rewrite seg_len_int, nbytes_N. symmetry. now apply N.div_exact. Qed.

Section Fragment.
  Variable fl : file.
  Variable d : decl.

  Definition bf_field (f : field) : bool :=
    match f_cond f with
    | Some _ => false
    | None =>
        match f_desc f with
        | Scalar _ _ | FixedScalar _ _ | Reserved _ => true
        | Typedef _ tid | FixedEnum tid _ =>
            match lookup_decl fl tid with Some (DEnum _ _ _) => true | _ => false end
        | _ => false
        end
    end.

  Lemma bf_is_bitfield f : bf_field f = true -> is_bitfield fl f = true.
  Proof.
    unfold bf_field, is_bitfield. destruct (f_cond f); [discriminate|].
    destruct (f_desc f); try discriminate; try reflexivity.
    destruct (lookup_decl fl type_id) as [[]|]; try discriminate; reflexivity.
  Qed.

  Lemma bf_cond f : bf_field f = true -> f_cond f = None.
  Proof. unfold bf_field. now destruct (f_cond f). Qed.

  Lemma bf_not_payload f : bf_field f = true -> is_payload f = false.
  Proof.
    unfold bf_field, is_payload. destruct (f_cond f); [discriminate|].
    now destruct (f_desc f).
  Qed.
End Fragment.

(** The emitted code returns [want], or pdlc refused to generate it.  Only [GenAssert]
    counts: where the reference has an encoding, the generator panics in reach are its
    assertions (a bit-field group wider than 64 bits; in [EncodeRef.ref_class] also a size
    field whose name finds an earlier field that is no array). *)
Definition good (r : eres (list byte)) (want : list byte) : Prop :=
  match r with
  | Ok bs => bs = want
  | Panic GenAssert => True
  | _ => False
  end.

Lemma good_oapp a b wa wb : good a wa -> good b wb -> good (oapp a b) (wa ++ wb)%list.
Proof.
  unfold good, oapp, bind. destruct a as [x| |k|]; try tauto.
  intros ->. destruct b as [y| |k|]; try tauto.
  intros ->. reflexivity.
Qed.

Definition schema_knows_enums (fl : file) (sch : schema) : Prop :=
  forall tid tags w,
    lookup_decl fl tid = Some (DEnum tid tags w) \/ (exists i, lookup_decl fl tid = Some (DEnum i tags w)) ->
    type_total sch tid = Some (SStatic w).

(** [lookup_decl fl tid] only returns declarations named [tid], so the first disjunct of the
    premise of [schema_knows_enums] is an instance of the second; this is the form to use. *)
Lemma schema_enum_total fl sch tid i tags w :
  schema_knows_enums fl sch -> lookup_decl fl tid = Some (DEnum i tags w) ->
  type_total sch tid = Some (SStatic w).
Proof. intros Hs Hl. apply (Hs tid tags w). right. now exists i. Qed.

Lemma enum_tags_total fl sch tid tags w :
  schema_knows_enums fl sch -> enum_tags fl tid = Some (tags, w) ->
  type_total sch tid = Some (SStatic w).
Proof.
  intros Hs. unfold enum_tags.
  destruct (lookup_decl fl tid) as [[| |i tags' w'| | | |]|] eqn:El; try discriminate.
  intros [= <- <-]. exact (schema_enum_total _ _ _ _ _ _ Hs El).
Qed.

(** The width the reference gives a bit-field of any kind is the size the schema gives it:
    in [ref_bitfield] the width never depends on the value. *)
Lemma ref_bitfield_size fl sch rec d all cs obj payload f v w :
  schema_knows_enums fl sch -> f_cond f = None ->
  ref_bitfield fl rec d all cs obj payload f = Some (v, w) ->
  field_size sch d f = Some (SStatic w).
Proof.
  intros Hs Hc H. unfold field_size. rewrite Hc. unfold ref_bitfield in H.
  destruct (f_desc f) as [c|n|sf sw|cf cw|ef ew| |pm|fw fv|fe ft|rw|ai aw aty am asz|si sw|gi gu|ti tt|gg gc];
    try discriminate.
  - (* Size *)
    destruct (_ || _); [now injection H as _ <-|].
    destruct (ref_array_elems fl rec d obj sf); [|discriminate]. now injection H as _ <-.
  - (* Count *)
    destruct (assoc cf obj) as [[| |vs|]|]; try discriminate. now injection H as _ <-.
  - (* ElementSize *)
    destruct (ref_array_elems fl rec d obj ef) as [ebs|]; [|discriminate].
    destruct (all_same_length ebs); [|discriminate]. now injection H as _ <-.
  - (* FixedScalar *) now injection H as _ <-.
  - (* FixedEnum *)
    destruct (enum_tags fl fe) as [[tags w0]|] eqn:E; [|discriminate].
    destruct (enum_tag_value tags ft); [|discriminate]. injection H as _ <-.
    exact (enum_tags_total fl sch fe tags w0 Hs E).
  - (* Reserved *) now injection H as _ <-.
  - (* Scalar *)
    destruct (find_constraint cs si) as [c|].
    + destruct (constraint_N fl all c); [|discriminate]. now injection H as _ <-.
    + destruct (assoc si obj) as [[]|]; try discriminate. now injection H as _ <-.
  - (* Flag *)
    destruct (flag_value obj gu) as [[fv|]|]; try discriminate. now injection H as _ <-.
  - (* Typedef *)
    destruct (enum_tags fl tt) as [[tags w0]|] eqn:E; [|discriminate].
    rewrite (enum_tags_total fl sch tt tags w0 Hs E).
    destruct (find_constraint cs ti) as [c|].
    + destruct (constraint_N fl all c); [|discriminate]. now injection H as _ <-.
    + destruct (assoc ti obj) as [[]|]; try discriminate.
      destruct (spec_enum_of_N tags w0 n); [|discriminate]. now injection H as _ <-.
Qed.

Definition root_of_fragment (fl : file) (d : decl) : Prop :=
  (exists id fs, d = DPacket id [] fs None \/ d = DStruct id [] fs None)
  /\ forallb (bf_field fl) (decl_fields d) = true.
