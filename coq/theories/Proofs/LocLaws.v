(** [SourceLocation::new]: the line / column it reports are consistent with the byte
    offset, for every offset and every list of line starts. *)
From Coq Require Import NArith List Lia ZifyN ZifyBool.
From PDL Require Import Front.Loc.
Import ListNotations.
Open Scope N_scope.

(** [consistent ls0 offset r]: [r] names a line start [s <= offset] of [ls0] (or the
    implicit start 0 of the initial value) and its column is the distance to it *)
Definition consistent (ls0 : list N) (offset : N) (r : srcloc) : Prop :=
  l_offset r = offset /\
  exists s, (s = 0 \/ In s ls0) /\ s <= offset /\ l_column r = offset - s.

Lemma loc_scan_consistent ls0 offset : forall ls line cur,
  (forall s, In s ls -> In s ls0) ->
  consistent ls0 offset cur ->
  consistent ls0 offset (loc_scan offset ls line cur).
Proof.
  induction ls as [|start ls IH]; intros line cur Hsub Hcur; cbn [loc_scan]; [exact Hcur|].
  destruct (offset <? start) eqn:E; [exact Hcur|].
  apply IH; [intros s Hs; apply Hsub; right; exact Hs|].
  split; [reflexivity|]. exists start. split; [right; apply Hsub; left; reflexivity|].
  split; [lia | reflexivity].
Qed.

Theorem source_location_consistent offset ls :
  consistent ls offset (source_location offset ls).
Proof.
  unfold source_location. apply loc_scan_consistent; [tauto|].
  split; [reflexivity|]. exists 0. split; [left; reflexivity|]. split; [lia|]. cbn. lia.
Qed.

Lemma loc_scan_line offset : forall ls line cur,
  l_line (loc_scan offset ls line cur) = l_line cur \/
  (line <= l_line (loc_scan offset ls line cur) /\ l_line (loc_scan offset ls line cur) < line + N.of_nat (List.length ls)).
Proof.
  induction ls as [|start ls IH]; intros line cur; cbn [loc_scan]; [left; reflexivity|].
  destruct (offset <? start); [left; reflexivity|].
  right. destruct (IH (line + 1) (mkLoc offset line (offset - start))) as [H|[H1 H2]].
  - rewrite H. cbn [l_line List.length]. lia.
  - cbn [List.length]. lia.
Qed.

Theorem source_location_line_in_range offset ls :
  ls <> [] -> l_line (source_location offset ls) < N.of_nat (List.length ls).
Proof.
  intros Hne. unfold source_location.
  destruct (loc_scan_line offset ls 0 (mkLoc offset 0 offset)) as [H|[_ H]].
  - rewrite H. cbn [l_line]. destruct ls; [congruence|]. cbn [List.length]. lia.
  - lia.
Qed.
