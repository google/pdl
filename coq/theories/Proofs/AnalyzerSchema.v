(** From acceptance by the analyzer model to the hypotheses of the backend theorems.
    The enum declarations of the ANALYZED file (the one the schema and the generators see)
    passed the enum check: [inline_groups] and [desugar_flags] leave them alone.  The two
    models of [Schema::new] -- [Passes.schema_new] (site-aware, inside the analyzer model)
    and [Schema.mk_schema] (used by the backend theorems) -- are the same function, except
    that [schema_new] also panics on every overflowing padding size, where [mk_schema]
    only looks at a padding that follows a field; files that pass [check_padding_fields]
    have no other ([cex_padding]).  Hence the schema of an accepted file whose enum widths
    fit [usize] knows its enums, and the round trip holds with acceptance as its hypothesis. *)
From Coq Require Import NArith List String Bool Lia.
From PDL Require Rust.Enum.
From PDL Require Import Base.Outcome Lang.Ast Lang.Sexp Analyzer.Schema Analyzer.Desugar
     Analyzer.Passes Analyzer.Analyze Sem.RefEncode Rust.Encode Rust.Decode
     Proofs.ListFacts Proofs.BitfieldEncode Proofs.AnalyzerSound Proofs.SchemaEnums
     Proofs.SizeClasses Proofs.RoundTrip Proofs.RoundTripReal.
Import ListNotations.
Open Scope N_scope.

Lemma pbind_ok {A B} (e : pres A) (f : A -> pres B) b :
  pbind e f = POk b -> exists a, e = POk a /\ f a = POk b.
Proof. destruct e as [a|]; [eauto | discriminate]. Qed.

Lemma pmap_ok {A B} (f : A -> pres B) l : forall r,
  pmap f l = POk r -> forall y, In y r <-> exists x, In x l /\ f x = POk y.
Proof.
  induction l as [|a l IH]; intros r H y; cbn [pmap] in H.
  - injection H as <-. split; [intros [] | intros (x & [] & _)].
  - apply pbind_ok in H as (b & Hb & H). apply pbind_ok in H as (r' & Hr' & [= <-]).
    cbn [In]. rewrite (IH r' Hr'). split.
    + intros [<-|(x & Hx & Hfx)]; eauto.
    + intros (x & [<-|Hx] & Hfx); [left; congruence | eauto].
Qed.

Lemma inline_decl_enum fl x dl i tags w :
  inline_decl fl x = POk dl -> (In (DEnum i tags w) dl <-> x = DEnum i tags w).
Proof.
  intros H. split.
  - destruct x; cbn [inline_decl] in H; try (apply pbind_ok in H as (fs' & _ & H)); injection H as <-;
      cbn [In]; intros Hin; try (destruct Hin as [E|[]]; congruence). destruct Hin.
  - intros ->. injection H as <-. now left.
Qed.

Lemma desugar_decl_enum x y i tags w :
  desugar_decl x = POk y -> (y = DEnum i tags w <-> x = DEnum i tags w).
Proof.
  destruct x; cbn [desugar_decl]; intros H;
    try (apply pbind_ok in H as (fs' & _ & H)); injection H as <-; split; congruence.
Qed.

Theorem inline_groups_enums fl fl' i tags w :
  inline_groups_r fl = POk fl' ->
  (In (DEnum i tags w) (f_decls fl') <-> In (DEnum i tags w) (f_decls fl)).
Proof.
  unfold inline_groups_r. intros H. apply pbind_ok in H as (dss & Hdss & [= <-]).
  cbn [f_decls]. rewrite in_concat. split.
  - intros (dl & Hdl & Hin). apply (pmap_ok _ _ _ Hdss) in Hdl as (x & Hx & Hfx).
    now rewrite <- (proj1 (inline_decl_enum _ _ _ _ _ _ Hfx) Hin).
  - intros Hin. exists [DEnum i tags w]. split; [|now left].
    apply (pmap_ok _ _ _ Hdss). eauto.
Qed.

Theorem desugar_flags_enums fl fl' i tags w :
  desugar_flags_r fl = POk fl' ->
  (In (DEnum i tags w) (f_decls fl') <-> In (DEnum i tags w) (f_decls fl)).
Proof.
  unfold desugar_flags_r. intros H. apply pbind_ok in H as (ds & Hds & [= <-]).
  cbn [f_decls]. rewrite (pmap_ok _ _ _ Hds). split.
  - intros (x & Hx & Hfx). now rewrite <- (proj1 (desugar_decl_enum _ _ _ _ _ Hfx) eq_refl).
  - intros Hin. eauto.
Qed.

Theorem accepted_enums_checked file af sch :
  analyze_with_schema file = Accepted (af, sch) ->
  forall i tags w, In (DEnum i tags w) (f_decls af) ->
                   check_enum_declaration (DEnum i tags w) = [].
Proof.
  intros H i tags w Hin.
  destruct (accepted_inv file af sch H) as (sorted & inlined & A).
  apply (proj1 (per_decl_nil _ sorted) (acc_enums _ _ _ _ _ A)).
  apply (inline_groups_enums sorted inlined i tags w (acc_inlined _ _ _ _ _ A)).
  apply (desugar_flags_enums inlined af i tags w (acc_desugared _ _ _ _ _ A)). exact Hin.
Qed.

(** in the shape of the first conjunct of [RoundTripReal.enums_accepted] *)
Corollary accepted_enums_checked_lookup file af sch :
  analyze_with_schema file = Accepted (af, sch) ->
  forall tid i tags w, lookup_decl af tid = Some (DEnum i tags w) ->
                       check_enum_declaration (DEnum i tags w) = [].
Proof.
  intros H tid i tags w Hl. apply (accepted_enums_checked file af sch H).
  eapply lookup_decl_In. exact Hl.
Qed.

Corollary accepted_enums_checked_sorted file af sch sorted :
  analyze_with_schema file = Accepted (af, sch) ->
  check_decl_identifiers file = POk (inr sorted) ->
  (forall i tags w, In (DEnum i tags w) (f_decls sorted) <-> In (DEnum i tags w) (f_decls af))
  /\ forall d, In d (f_decls sorted) -> check_enum_declaration d = [].
Proof.
  intros H Hs.
  destruct (accepted_inv file af sch H) as (sorted' & inlined & A).
  pose proof (acc_sorted _ _ _ _ _ A) as Hs'. rewrite Hs in Hs'. injection Hs' as <-. split.
  - intros i tags w. rewrite (desugar_flags_enums inlined af i tags w (acc_desugared _ _ _ _ _ A)).
    symmetry. apply (inline_groups_enums sorted inlined i tags w (acc_inlined _ _ _ _ _ A)).
  - apply per_decl_nil. exact (acc_enums _ _ _ _ _ A).
Qed.

Lemma po_bind {A B} (e : pres A) (f : A -> pres B) :
  pres_option (pbind e f) = match pres_option e with Some x => pres_option (f x) | None => None end.
Proof. destruct e; reflexivity. Qed.

Lemma po_size_add a b : pres_option (p_size_add a b) = size_add a b.
Proof. unfold p_size_add. destruct (size_add a b); reflexivity. Qed.

Lemma po_total sch t : pres_option (p_total_size sch t) = type_total sch t.
Proof.
  unfold p_total_size, type_total, ds_total. destruct (assoc t sch) as [ds|]; [|reflexivity].
  rewrite po_bind, po_size_add. destruct (size_add (ds_decl ds) (ds_parent ds)); [apply po_size_add | reflexivity].
Qed.

(** every identifier annotated so far is an identifier of the file *)
Definition keys_in (sch : schema) (scope : list string) : Prop :=
  forall i, mem i scope = false -> assoc i sch = None.

(** a type that is not declared at all is a panic in [annotate_field], and not annotated here *)
Lemma po_total_scoped sch scope t msg :
  keys_in sch scope ->
  pres_option (if mem t scope then p_total_size sch t else PPanic msg) = type_total sch t.
Proof.
  intros Hk. destruct (mem t scope) eqn:Em; [apply po_total|]. unfold type_total. now rewrite (Hk _ Em).
Qed.

Lemma field_agree sch scope d f :
  keys_in sch scope ->
  pres_option (annotate_field sch scope d f) = field_size sch d f.
Proof.
  intros Hk. unfold annotate_field, field_size.
  destruct (f_cond f); [reflexivity|].
  destruct (f_desc f) as [ | | | | | | | | | |aid [w|] [t|] am [s|]| | | | ];
    try reflexivity; try exact (po_total_scoped _ _ _ _ Hk); try (now destruct (fits_usize (s * w))).
  destruct (mem t scope) eqn:Em.
  - rewrite po_bind, po_total. destruct (type_total sch t) as [tt|]; [|reflexivity].
    now destruct (size_mul_n tt s).
  - unfold type_total. now rewrite (Hk _ Em).
Qed.

(** the test at the head of [Passes.annotate_decl] (analyzer.rs 365-372) *)
Definition pad_overflows (fs : list field) : bool :=
  existsb (fun f => match f_desc f with
                    | Padding size => negb (fits_usize (8 * size))
                    | _ => false end) fs.

Definition drop_sizes (r : size * size * list size) : size * size := (fst (fst r), snd (fst r)).

(** [Schema.annotate_fields] tests [8 * size] only for a padding field that FOLLOWS a
    non-payload field (the test sits in the contribution of the preceding field); the Rust
    code and [Passes.annotate_decl] compute it for every padding field.  [trips]: that
    test fails somewhere in the list. *)
Definition big_next (rest : list field) : bool :=
  match next_padding rest with Some p => negb (fits_usize p) | None => false end.

Fixpoint trips (fs : list field) : bool :=
  match fs with
  | [] => false
  | f :: rest => negb (is_payload f) && big_next rest || trips rest
  end.

(** the test as [Schema.annotate_fields] writes it *)
Lemma pad_test rest :
  match next_padding rest with Some p => fits_usize p | None => true end = negb (big_next rest).
Proof. unfold big_next. destruct (next_padding rest); [now rewrite negb_involutive | reflexivity]. Qed.

Lemma fields_agree sch scope d : keys_in sch scope -> forall fs a p,
  trips fs = false ->
  option_map drop_sizes (pres_option (Passes.annotate_fields sch scope d fs a p))
  = Schema.annotate_fields sch d fs a p.
Proof.
  intros Hk. induction fs as [|f rest IH]; intros a p Ht; [reflexivity|].
  cbn [Passes.annotate_fields Schema.annotate_fields]. cbn [trips] in Ht.
  apply orb_false_elim in Ht. destruct Ht as [Hhere Hrest].
  rewrite po_bind, (field_agree sch scope d f Hk).
  destruct (field_size sch d f) as [fsz|]; [|reflexivity].
  destruct (is_payload f); cbn [pbind fst snd negb andb] in *.
  - rewrite po_bind, <- (IH a fsz Hrest).
    now destruct (Passes.annotate_fields sch scope d rest a fsz) as [[[x y] z]|].
  - rewrite pad_test, Hhere, !po_bind, po_size_add. cbn [negb].
    destruct (size_add a _) as [a'|]; [|reflexivity].
    cbn [pres_option fst snd]. rewrite po_bind, <- (IH a' p Hrest).
    now destruct (Passes.annotate_fields sch scope d rest a' p) as [[[x y] z]|].
Qed.

Lemma pad_overflows_cons g rest : pad_overflows (g :: rest) = big_next (g :: rest) || pad_overflows rest.
Proof. unfold big_next, next_padding. cbn [pad_overflows existsb]. now destruct (f_desc g). Qed.

(** the test of [Schema.annotate_fields] can only fail where that of [Passes.annotate_decl] does *)
Lemma trips_pad_overflows : forall fs, trips fs = true -> pad_overflows fs = true.
Proof.
  induction fs as [|f rest IH]; [discriminate|]. cbn [trips]. rewrite pad_overflows_cons. intros H.
  apply orb_prop in H. destruct H as [H|H]; [|rewrite (IH H); apply orb_true_r].
  apply andb_prop in H. destruct H as [_ H]. destruct rest as [|g rest]; [discriminate|].
  rewrite pad_overflows_cons, H. now rewrite orb_true_r.
Qed.

(** the parent size as [Passes.annotate_decl] computes it (analyzer.rs 374-378) *)
Definition p_parent_size (sch : schema) (scope : list string) (d : decl) : pres size :=
  match decl_parent_id d with
  | Some parent_id =>
      if mem parent_id scope then
        match assoc parent_id sch with
        | Some ds => p_size_add (ds_decl ds) (ds_parent ds)
        | None => PPanic "505:Schema::decl_size:self.decl_size[&key]"
        end
      else POk (SStatic 0)
  | None => POk (SStatic 0)
  end.

(** a parent that is declared but not annotated yet is a panic on both sides *)
Lemma parent_agree sch scope d :
  keys_in sch scope ->
  pres_option (p_parent_size sch scope d)
  = if parent_known scope sch d then parent_size sch d else None.
Proof.
  intros Hk. unfold p_parent_size, parent_known, parent_size.
  destruct (decl_parent_id d) as [pid|]; [|reflexivity]. fold (mem pid scope).
  destruct (mem pid scope) eqn:Em.
  - destruct (assoc pid sch) as [ds|]; [apply po_size_add | reflexivity].
  - now rewrite (Hk _ Em).
Qed.

Lemma decl_agree sch scope d :
  keys_in sch scope ->
  pad_overflows (decl_fields d) = false ->
  option_map (fun a => push_decl sch d (fst a)) (pres_option (Passes.annotate_decl sch scope d))
  = sch_step scope sch d.
Proof.
  intros Hk Hpad.
  assert (Ht : trips (decl_fields d) = false)
    by (destruct (trips (decl_fields d)) eqn:E; [now rewrite (trips_pad_overflows _ E) in Hpad | reflexivity]).
  unfold Passes.annotate_decl. fold (pad_overflows (decl_fields d)) (p_parent_size sch scope d).
  rewrite Hpad, po_bind, (parent_agree _ _ _ Hk).
  unfold sch_step, Schema.annotate_decl. fold (parent_size sch d).
  destruct (parent_known scope sch d); [|reflexivity].
  destruct (parent_size sch d) as [ps|]; [|reflexivity].
  rewrite po_bind, <- (fields_agree sch scope d Hk _ _ _ Ht).
  destruct (Passes.annotate_fields sch scope d (decl_fields d) (SStatic 0) (SStatic 0)) as [[[x y] z]|];
    [|reflexivity].
  now destruct d as [? ? ?|? [?|] ?|? ? ?|? ? ? ?|? ? ? ?|? ?|?].
Qed.

(** the loop of [Passes.schema_new], named *)
Definition sn_go (scope : list string) :=
  fix go (ds : list decl) (sch : schema) : pres aschema :=
    match ds with
    | [] => POk (mkASchema sch [])
    | d :: rest =>
        let! a := Passes.annotate_decl sch scope d in
        let! r := go rest (push_decl sch d (fst a)) in
        POk (mkASchema (as_decls r) (snd a :: as_fields r))
    end.

Lemma schema_new_eq fl : schema_new fl = sn_go (decl_ids fl) (f_decls fl) [].
Proof. reflexivity. Qed.

Definition file_pad_overflows (ds : list decl) : bool :=
  existsb (fun d => pad_overflows (decl_fields d)) ds.

Definition ids_in (ds : list decl) (scope : list string) : Prop :=
  forall d i, In d ds -> decl_id d = Some i -> mem i scope = true.

Lemma keys_in_push sch scope d e :
  keys_in sch scope -> (forall i, decl_id d = Some i -> mem i scope = true) ->
  keys_in (push_decl sch d e) scope.
Proof.
  intros Hk Hd i Hi. rewrite assoc_push. destruct (has_id i d) eqn:Eh; [|exact (Hk i Hi)].
  apply has_id_spec in Eh. now rewrite (Hd i Eh) in Hi.
Qed.

(** The two loops are the same function, except that [schema_new] panics on every
    overflowing padding size. *)
Lemma go_agree scope : forall ds sch,
  keys_in sch scope -> ids_in ds scope ->
  option_map as_decls (pres_option (sn_go scope ds sch))
  = if file_pad_overflows ds then None else mk_schema_go ds scope sch.
Proof.
  induction ds as [|d rest IH]; intros sch Hk Hids; [reflexivity|].
  rewrite go_cons. cbn [sn_go file_pad_overflows existsb]. fold (sn_go scope) (file_pad_overflows rest).
  rewrite po_bind. destruct (pad_overflows (decl_fields d)) eqn:Hd; cbn [orb].
  - unfold Passes.annotate_decl. fold (pad_overflows (decl_fields d)). now rewrite Hd.
  - rewrite <- (decl_agree sch scope d Hk Hd).
    destruct (Passes.annotate_decl sch scope d) as [a|s]; [|now destruct (file_pad_overflows rest)].
    cbn [pres_option option_map]. rewrite po_bind, <- (IH (push_decl sch d (fst a))).
    + now destruct (sn_go scope rest _).
    + apply keys_in_push; [exact Hk|]. intros i Hi. exact (Hids d i (or_introl eq_refl) Hi).
    + intros d' i Hin. apply Hids. right; exact Hin.
Qed.

Lemma ids_in_file fl : ids_in (f_decls fl) (decl_ids fl).
Proof.
  intros d i Hin Hid. apply mem_In. unfold decl_ids. apply in_flat_map.
  exists d. split; [exact Hin|]. rewrite Hid. left; reflexivity.
Qed.

Lemma schema_models fl :
  option_map as_decls (pres_option (schema_new fl))
  = if file_pad_overflows (f_decls fl) then None else mk_schema fl.
Proof. rewrite schema_new_eq. apply go_agree; [intros i _; reflexivity | apply ids_in_file]. Qed.

(** No padding size of the file overflows [8 * size]: the two models are the same
    function ([None] = some panic site). *)
Theorem schema_models_agree fl :
  file_pad_overflows (f_decls fl) = false ->
  option_map as_decls (pres_option (schema_new fl)) = mk_schema fl.
Proof. intros Hpad. now rewrite schema_models, Hpad. Qed.

(** For EVERY file: what [schema_new] returns is what [mk_schema] returns. *)
Theorem schema_new_ok_mk_schema fl a :
  schema_new fl = POk a -> mk_schema fl = Some (as_decls a).
Proof.
  intros H. pose proof (schema_models fl) as E. rewrite H in E.
  now destruct (file_pad_overflows (f_decls fl)).
Qed.

Theorem mk_schema_ok_schema_new fl sch :
  file_pad_overflows (f_decls fl) = false ->
  mk_schema fl = Some sch -> exists a, schema_new fl = POk a /\ as_decls a = sch.
Proof.
  intros Hpad Hmk. rewrite <- (schema_models_agree fl Hpad) in Hmk.
  destruct (schema_new fl) as [a|s]; [|discriminate].
  exists a. split; [reflexivity|]. cbn [pres_option option_map] in Hmk. now inversion Hmk.
Qed.

Theorem accepted_mk_schema file af sch :
  analyze_with_schema file = Accepted (af, sch) -> mk_schema af = Some (as_decls sch).
Proof.
  intros H. destruct (accepted_inv file af sch H) as (sorted & inlined & A).
  exact (schema_new_ok_mk_schema af sch (acc_schema _ _ _ _ _ A)).
Qed.

Theorem accepted_knows_enums file af sch :
  analyze_with_schema file = Accepted (af, sch) ->
  enum_widths_fit af = true ->
  schema_knows_enums af (as_decls sch).
Proof.
  intros H Hfit. apply mk_schema_knows_enums; [exact Hfit | exact (accepted_mk_schema file af sch H)].
Qed.

(** identifiers of the analyzed file are distinct, too (analyzer.rs 1925) *)
Theorem accepted_analyzed_nodup file af sch :
  analyze_with_schema file = Accepted (af, sch) -> NoDup (decl_id_list (f_decls af)).
Proof.
  intros H. destruct (accepted_inv file af sch H) as (sorted & inlined & A).
  apply scope_new_nodup, (acc_scope_af _ _ _ _ _ A).
Qed.

(** an overflowing padding size makes [schema_new] panic: at analyzer.rs 369 for the declaration
    that holds it, unless an earlier site panics first *)
Theorem schema_new_padding_panic fl :
  file_pad_overflows (f_decls fl) = true -> exists s, schema_new fl = PPanic s.
Proof.
  intros H. pose proof (schema_models fl) as E. rewrite H in E.
  destruct (schema_new fl) as [a|s]; [discriminate | eauto].
Qed.

Lemma trips_none sch d : forall fs a p, trips fs = true -> Schema.annotate_fields sch d fs a p = None.
Proof.
  induction fs as [|f rest IH]; intros a p H; [discriminate|]. cbn [Schema.annotate_fields trips] in *.
  destruct (field_size sch d f); [|reflexivity].
  destruct (is_payload f); cbn [negb andb orb] in H; [exact (IH _ _ H)|].
  rewrite pad_test. destruct (big_next rest); cbn [negb orb] in *; [reflexivity|].
  destruct (size_add a _); [exact (IH _ _ H) | reflexivity].
Qed.

Lemma sch_step_none all sch d : trips (decl_fields d) = true -> sch_step all sch d = None.
Proof.
  intros H. unfold sch_step, Schema.annotate_decl. fold (parent_size sch d).
  rewrite (trips_none sch d _ _ _ H). destruct (parent_known all sch d); [|reflexivity].
  now destruct (parent_size sch d).
Qed.

Lemma go_none all : forall ds sch,
  existsb (fun d => trips (decl_fields d)) ds = true -> mk_schema_go ds all sch = None.
Proof.
  induction ds as [|d rest IH]; intros sch H; [discriminate|]. rewrite go_cons.
  cbn [existsb] in H. destruct (trips (decl_fields d)) eqn:Ed; [now rewrite sch_step_none|].
  destruct (sch_step all sch d); [exact (IH _ H) | reflexivity].
Qed.

(** on a declaration that passes E39 (every padding field follows an array, hence a
    non-payload field) every overflowing padding size fails the test of
    [Schema.annotate_fields] as well *)
Lemma checked_trips : forall fs prev,
  check_padding_fields_go fs prev = [] ->
  pad_overflows fs = prev && big_next fs || trips fs.
Proof.
  induction fs as [|f rest IH]; intros prev Hc; [now destruct prev|].
  rewrite pad_overflows_cons. cbn [trips].
  assert (Hnext : check_padding_fields_go rest false = [] -> big_next rest = false).
  { destruct rest as [|g rest']; [reflexivity|]. unfold big_next, next_padding.
    cbn [check_padding_fields_go]. now destruct (f_desc g). }
  unfold big_next at 1 2, next_padding, is_payload. cbn [check_padding_fields_go] in Hc.
  destruct (f_desc f); cbn [is_payload_desc negb andb orb];
    try (rewrite (IH _ Hc), (Hnext Hc); now destruct prev).
  - destruct prev; [|discriminate Hc]. now rewrite (IH _ Hc), (Hnext Hc).
  - rewrite (IH _ Hc). now destruct prev.
Qed.

(** [check_padding_fields] (E39: a padding field must follow an array) closes the gap
    between the two tests of [8 * size]: on every file that passes it the two models are
    the same function. *)
Theorem schema_models_agree_padding_checked fl :
  check_padding_fields fl = [] ->
  option_map as_decls (pres_option (schema_new fl)) = mk_schema fl.
Proof.
  intros Hc. rewrite schema_models. destruct (file_pad_overflows (f_decls fl)) eqn:Ep; [|reflexivity].
  symmetry. apply go_none. unfold file_pad_overflows in Ep.
  apply existsb_exists in Ep. destruct Ep as [d [Hd Hp]]. apply existsb_exists. exists d. split; [exact Hd|].
  pose proof (proj1 (per_decl_nil _ fl) Hc d Hd) as Hcd. cbn beta in Hcd.
  now rewrite (checked_trips _ _ Hcd) in Hp.
Qed.

Local Open Scope string_scope.

(** declarations out of order, a group with a constraint, an optional field (hence a
    flag), an array followed by padding, an enum with a range *)
Definition ex_acc : file :=
  mkFile LittleEndian
    [ DPacket "P" [] [mkField (Typedef "a" "A") None; mkField (Scalar "c" 4) None;
                      mkField (Scalar "f" 1) None;
                      mkField (Group "G" [mkConstr "g" (Some 5) None]) None;
                      mkField (Scalar "o" 8) (Some (mkConstr "f" (Some 1) None));
                      mkField (Array "arr" (Some 8) None None (Some 3)) None;
                      mkField (Padding 4) None] None;
      DGroup "G" [mkField (Scalar "g" 8) None];
      DEnum "A" [TagValue "X" 0; TagValue "Y" 1; TagRange "R" 2 5 [("R3", 3)]] 3 ].

Definition ex_out : file * aschema :=
  Eval vm_compute in
    match analyze_with_schema ex_acc with Accepted p => p | _ => (ex_acc, mkASchema [] []) end.

Eval vm_compute in ex_out.

Example ex_acc_accepted : analyze_with_schema ex_acc = Accepted (fst ex_out, snd ex_out).
Proof. vm_compute. reflexivity. Qed.

Example ex_acc_hypotheses :
  enum_widths_fit (fst ex_out) = true
  /\ file_pad_overflows (f_decls (fst ex_out)) = false
  /\ check_padding_fields (fst ex_out) = []
  /\ lookup_decl (fst ex_out) "A"
     = Some (DEnum "A" [TagValue "X" 0; TagValue "Y" 1; TagRange "R" 2 5 [("R3", 3)]] 3).
Proof. repeat split; vm_compute; reflexivity. Qed.

(** obtained from the theorems, not by evaluation *)
Example ex_acc_conclusions :
  check_enum_declaration (DEnum "A" [TagValue "X" 0; TagValue "Y" 1; TagRange "R" 2 5 [("R3", 3)]] 3) = []
  /\ mk_schema (fst ex_out) = Some (as_decls (snd ex_out))
  /\ schema_knows_enums (fst ex_out) (as_decls (snd ex_out))
  /\ type_total (as_decls (snd ex_out)) "A" = Some (SStatic 3).
Proof.
  destruct ex_acc_hypotheses as (Hfit & _ & _ & Hl).
  pose proof (accepted_knows_enums _ _ _ ex_acc_accepted Hfit) as Hk.
  split; [exact (accepted_enums_checked_lookup _ _ _ ex_acc_accepted _ _ _ _ Hl)|].
  split; [exact (accepted_mk_schema _ _ _ ex_acc_accepted)|].
  split; [exact Hk|].
  exact (Hk "A" _ 3 (or_introl Hl)).
Qed.

(** Counter-example to the unconditional converse of [schema_new_ok_mk_schema]: a padding
    field with nothing before it whose size in bits overflows [usize].  The Rust code
    (analyzer.rs 365-372) computes [8 * size] for every padding field, as [schema_new]
    does; [mk_schema] returns a schema.  The analyzer rejects the file (E39). *)
Definition cex_padding : file :=
  mkFile LittleEndian [ DPacket "P" [] [mkField (Padding 2305843009213693952) None] None ].

Eval vm_compute in (schema_new cex_padding, mk_schema cex_padding, analyze_with_schema cex_padding).

Example schema_models_disagree :
  schema_new cex_padding = PPanic "369:annotate_decl:8 * *size"
  /\ mk_schema cex_padding = Some [("P", mkDs (SStatic 0) (SStatic 0) (SStatic 0))]
  /\ analyze_with_schema cex_padding = Rejected [39].
Proof. repeat split; vm_compute; reflexivity. Qed.

Definition cex_padding_payload : file :=
  mkFile LittleEndian
    [ DPacket "P" [] [mkField (Payload None) None; mkField (Padding 2305843009213693952) None] None ].

Example schema_models_disagree_payload :
  schema_new cex_padding_payload = PPanic "369:annotate_decl:8 * *size"
  /\ mk_schema cex_padding_payload = Some [("P", mkDs (SStatic 0) (SStatic 0) SUnknown)].
Proof. split; vm_compute; reflexivity. Qed.

(** The round trip (C02) with acceptance by the analyzer as its hypothesis.  What the
    analyzer does not check is that the Rust generator is defined on the enums (width at
    most 64, at least one value or range tag): that stays a hypothesis. *)
Definition enums_generable (fl : file) : Prop :=
  forall tid i tags w,
    lookup_decl fl tid = Some (DEnum i tags w) ->
    Enum.integer_width w <> None /\ Enum.enum_is_complete tags (Enum.scalar_max w) <> None.

Lemma integer_width_fits w : Enum.integer_width w <> None -> fits_usize w = true.
Proof.
  destruct (Enum.integer_width w) as [tw|] eqn:E; [intros _ | now intros []].
  apply GenPre.integer_width_bounds in E. unfold fits_usize, usize_max. apply N.leb_le. lia.
Qed.

Theorem generable_widths_fit fl :
  NoDup (decl_id_list (f_decls fl)) -> enums_generable fl -> enum_widths_fit fl = true.
Proof.
  intros Hnd Hg. unfold enum_widths_fit. apply forallb_forall. intros d Hin.
  destruct d as [a1 a2 a3|a1 a2 a3|i tags w|a1 a2 a3 a4|a1 a2 a3 a4|a1 a2|a1]; try reflexivity.
  apply integer_width_fits.
  exact (proj1 (Hg i i tags w (lookup_decl_complete fl _ i Hnd Hin eq_refl))).
Qed.

Theorem accepted_enums_accepted file af sch :
  analyze_with_schema file = Accepted (af, sch) -> enums_generable af -> enums_accepted af.
Proof.
  intros H Hg tid i tags w Hl. split; [|exact (Hg tid i tags w Hl)].
  exact (accepted_enums_checked_lookup file af sch H tid i tags w Hl).
Qed.

Theorem accepted_roundtrip_hypotheses file af sch :
  analyze_with_schema file = Accepted (af, sch) -> enums_generable af ->
  enum_widths_fit af = true /\ mk_schema af = Some (as_decls sch) /\ enums_accepted af.
Proof.
  intros H Hg. split; [|split].
  - exact (generable_widths_fit af (accepted_analyzed_nodup file af sch H) Hg).
  - exact (accepted_mk_schema file af sch H).
  - exact (accepted_enums_accepted file af sch H Hg).
Qed.

Theorem accepted_roundtrip fuel fuel' oc file af sch id d o bs tl :
  analyze_with_schema file = Accepted (af, sch) -> enums_generable af ->
  lookup_decl af id = Some d ->
  root_of_fragment af d ->
  canonical_obj o (decl_fields d) ->
  ref_encode (S fuel) af id (VObj o) = Some bs ->
  match rust_encode (S fuel) af (as_decls sch) id (VObj o) with
  | Ok bs' =>
      bs' = bs /\
      gooddec (rust_decode (S fuel') oc af (as_decls sch) id (bs' ++ tl)) (fun r => r = (VObj o, tl))
  | Panic GenAssert => True
  | _ => False
  end.
Proof.
  intros H Hg. destruct (accepted_roundtrip_hypotheses file af sch H Hg) as (Hw & Hs & He).
  exact (rust_roundtrip_fragment_real_schema fuel fuel' oc af (as_decls sch) id d o bs tl Hw Hs He).
Qed.

Example ex_acc_generable : enums_generable (fst ex_out).
Proof.
  intros tid i tags w Hl.
  assert (Hin : In (DEnum i tags w) (f_decls (fst ex_out))) by (eapply lookup_decl_In; exact Hl).
  cbn [ex_out fst f_decls] in Hin. destruct Hin as [Hd|[Hd|[]]]; [|discriminate Hd].
  inversion Hd; subst i tags w. split; vm_compute; discriminate.
Qed.

Print Assumptions accepted_inv.
Print Assumptions accepted_enums_checked.
Print Assumptions accepted_enums_checked_lookup.
Print Assumptions accepted_enums_checked_sorted.
Print Assumptions inline_groups_enums.
Print Assumptions desugar_flags_enums.
Print Assumptions schema_models_agree.
Print Assumptions schema_new_ok_mk_schema.
Print Assumptions mk_schema_ok_schema_new.
Print Assumptions schema_new_padding_panic.
Print Assumptions schema_models_agree_padding_checked.
Print Assumptions accepted_mk_schema.
Print Assumptions accepted_knows_enums.
Print Assumptions accepted_analyzed_nodup.
Print Assumptions ex_acc_accepted.
Print Assumptions ex_acc_hypotheses.
Print Assumptions ex_acc_conclusions.
Print Assumptions schema_models_disagree.
Print Assumptions schema_models_disagree_payload.
Print Assumptions generable_widths_fit.
Print Assumptions accepted_enums_accepted.
Print Assumptions accepted_roundtrip_hypotheses.
Print Assumptions accepted_roundtrip.
Print Assumptions ex_acc_generable.
