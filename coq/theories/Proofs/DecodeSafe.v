(** The outcome predicates of the safety proofs, decoder and encoder side: a panic of the
    model is either a panic of the emitted code at run time or a refusal of the GENERATOR
    ([gen_panic]: pdlc panics at generation time, no code is emitted, nothing runs).
    Then the decoder: total on declarations made of unconditional bit-fields; free of
    run-time panics on the class [simple_file]; and the step from field lists to [decode]
    through inheritance and nested declarations (Section Whole), which DecodeSafeArrays.v
    takes up for its larger class. *)
From Coq Require Import NArith List String Bool.
From Coq Require Import Strings.Byte.
From PDL Require Import Base.Outcome Lang.Ast Lang.Sexp Analyzer.Schema Rust.Enum
     Sem.RefEncode Rust.Encode Rust.Decode Proofs.ListFacts Proofs.DecodeSteps.
Import ListNotations.
Open Scope N_scope.

Definition gen_panic (k : panic_kind) : bool :=
  match k with
  | UnwrapFail | GenTodo | GenUnreachable | GenAssert => true
  | _ => false
  end.

Definition runtime_safe {E A} (x : outcome E A) : Prop :=
  match x with
  | Ok _ | Err _ => True
  | Panic k => gen_panic k = true
  | Diverge => False
  end.

(** as [runtime_safe], but the model may run out of fuel ([Diverge]) *)
Definition no_rt_panic {E A} (x : outcome E A) : Prop :=
  match x with Panic k => gen_panic k = true | _ => True end.

Lemma safe_bind {E A B} (x : outcome E A) (f : A -> outcome E B) :
  runtime_safe x -> (forall a, x = Ok a -> runtime_safe (f a)) -> runtime_safe (bind x f).
Proof.
  intros Hx Hf. destruct x as [a|e|k|]; cbn [bind]; try exact Hx. apply Hf. reflexivity.
Qed.

Lemma nrp_bind {E A B} (x : outcome E A) (f : A -> outcome E B) :
  no_rt_panic x -> (forall a, x = Ok a -> no_rt_panic (f a)) -> no_rt_panic (bind x f).
Proof.
  intros Hx Hf. destruct x as [a|e|k|]; cbn [bind]; try exact Hx. apply Hf. reflexivity.
Qed.

Lemma safe_nrp {E A} (x : outcome E A) : runtime_safe x -> no_rt_panic x.
Proof. destruct x; cbn; auto. Qed.

Lemma safe_check {B} sp n (k : unit -> dres B) :
  (forall u, (len sp <? n) = false -> runtime_safe (k u)) -> runtime_safe (bind (check_size sp n) k).
Proof. intros H. unfold check_size. destruct (len sp <? n); [exact I|]. apply H. reflexivity. Qed.

Lemma nrp_check {B} sp n (k : unit -> dres B) :
  (forall u, (len sp <? n) = false -> no_rt_panic (k u)) -> no_rt_panic (bind (check_size sp n) k).
Proof. intros H. unfold check_size. destruct (len sp <? n); [exact I|]. apply H. reflexivity. Qed.

(** [get_uint], [advance], [slice_to], [slice_from] and [split_at] all are
    [if len sp <? n then Panic _ else Ok _]; [check_size] is the guard in front of them *)
Lemma guarded_safe {E A} (c : bool) k (r : A) :
  c = false -> runtime_safe (if c then Panic k else Ok r : outcome E A).
Proof. intros ->. exact I. Qed.

Lemma payload_entry_safe d st : runtime_safe (payload_entry d st).
Proof.
  unfold payload_entry. destruct (decl_payload d); [|exact I].
  destruct (st_payload st); [exact I|reflexivity].
Qed.

Section Safe.
  Variable oc : bool.
  Variable fl : file.
  Variable sch : schema.
  Variable rec : string -> list byte -> dres (value * list byte).
  Variable lf : nat.

  Lemma enum_check_safe tid x : runtime_safe (enum_check fl tid x).
  Proof.
    unfold enum_check. destruct (lookup_decl fl tid) as [[]|]; try reflexivity.
    destruct (rust_enum_try_from _ _ _) as [[]|]; try exact I; reflexivity.
  Qed.

  Lemma chunk_field_safe single cv ctw size st d sf :
    runtime_safe (chunk_field fl sch single cv ctw size st d sf).
  Proof.
    unfold chunk_field. destruct sf as [fshift f].
    destruct (field_size sch d f) as [[w| |]|]; try reflexivity.
    destruct (integer_width w) as [vtw|]; [|reflexivity].
    destruct (f_desc f); try exact I; try reflexivity.
    - destruct (_ =? _); exact I.
    - destruct (enum_tags _ _) as [[tags ?]|]; [|reflexivity].
      destruct (enum_tag_value _ _); [|reflexivity]. destruct (_ =? _); exact I.
    - apply safe_bind; [apply enum_check_safe | intros; exact I].
  Qed.

  Lemma chunk_fields_safe single cv ctw size d cs : forall st,
    runtime_safe (chunk_fields fl sch single cv ctw size st d cs).
  Proof.
    induction cs as [|c cs IH]; intros st; cbn [chunk_fields]; [exact I|].
    apply safe_bind; [apply chunk_field_safe|]. intros st' _. apply IH.
  Qed.

  Lemma dec_chunk_safe d st chunk shift : runtime_safe (dec_chunk fl sch d st chunk shift).
  Proof.
    unfold dec_chunk. apply safe_check. intros _ Hu.
    destruct (integer_width shift) as [ctw|]; [|reflexivity].
    destruct (is_single_reserved chunk).
    - apply safe_bind; [apply guarded_safe, Hu|]. intros; exact I.
    - apply safe_bind; [apply guarded_safe, Hu|]. intros [cv sp'] _. apply chunk_fields_safe.
  Qed.

  Lemma dec_field_bits_safe d pad f st chunk shift :
    f_cond f = None -> is_bitfield fl f = true ->
    runtime_safe (dec_field oc fl sch rec lf d pad f st chunk shift).
  Proof.
    unfold dec_field. intros -> ->. destruct (field_size sch d f) as [[w| |]|]; try reflexivity.
    destruct (_ =? 0); [|exact I]. apply safe_bind; [apply dec_chunk_safe|]. intros; exact I.
  Qed.

  Definition bits_only (fs : list field) : Prop :=
    forall f, In f fs -> f_cond f = None /\ is_bitfield fl f = true.

  Theorem dec_fields_bits_safe d : forall fs st chunk shift,
    bits_only fs ->
    runtime_safe (dec_fields oc fl sch rec lf d fs st chunk shift).
  Proof.
    induction fs as [|f fs IH]; intros st chunk shift Hb; [exact I|]. rewrite dec_fields_cons.
    apply safe_bind; [apply dec_field_bits_safe; apply (Hb f (or_introl eq_refl))|].
    intros [[st' chunk'] shift'] _. apply IH. intros g Hg. apply Hb. right. exact Hg.
  Qed.
End Safe.

Definition bits_root (fl : file) (d : decl) : Prop :=
  get_parent fl d = None /\ bits_only fl (decl_fields d).

Theorem rust_dec_decl_bits_safe fuel oc fl sch d bs :
  bits_root fl d ->
  runtime_safe (rust_dec_decl (S fuel) oc fl sch d bs).
Proof.
  intros [Hp Hb]. rewrite rust_dec_decl_S, Hp.
  apply safe_bind; [apply dec_fields_bits_safe; exact Hb|]. intros st _.
  apply safe_bind; [apply payload_entry_safe|]. intros; exact I.
Qed.

Theorem rust_decode_bits_safe fuel oc fl sch id d bs :
  lookup_decl fl id = Some d ->
  (exists i cs fs p, d = DPacket i cs fs p \/ d = DStruct i cs fs p) ->
  bits_root fl d ->
  runtime_safe (rust_decode (S fuel) oc fl sch id bs).
Proof.
  intros Hl [i [cs [fs [p Hd]]]] Hr. unfold rust_decode. rewrite Hl.
  destruct Hd as [-> | ->]; apply rust_dec_decl_bits_safe; exact Hr.
Qed.

(** The class [simple_file]: bit-fields, optional fields (scalar, enum, struct), struct-typed
    fields, payload and body, padding -- in root and derived declarations, through struct
    recursion.  Left out are arrays (DecodeSafeArrays.v; findings F02, F03 live there:
    element size zero, count * width overflow) and typedef fields of a sized custom-field
    type (F19: no length guard). *)

Section Simple.
  Variable oc : bool.
  Variable fl : file.
  Variable sch : schema.
  Variable rec : string -> list byte -> dres (value * list byte).
  Variable lf : nat.
  Hypothesis rec_ok : forall t sp, no_rt_panic (rec t sp).

  Definition safe_typedef (tid : string) : bool :=
    match lookup_decl fl tid, type_total sch tid with
    | Some (DCustomField _ _ _), Some (SStatic _) => false
    | _, _ => true
    end.

  Definition simple_field (f : field) : bool :=
    match f_cond f with
    | Some _ => true
    | None =>
        if is_bitfield fl f then true else
        match f_desc f with
        | Padding _ | Payload _ | Body => true
        | Typedef _ tid => safe_typedef tid
        | Array _ _ _ _ _ => false
        | _ => true            (* the generator refuses them *)
        end
    end.

  Lemma local_nrp st k : no_rt_panic (local st k).
  Proof. unfold local. destruct (assoc k (st_locals st)); [exact I|reflexivity]. Qed.

  Lemma optional_nrp st f c : no_rt_panic (add_optional_field fl rec st f c).
  Proof.
    unfold add_optional_field. destruct (c_value c) as [cv|]; [|reflexivity].
    apply nrp_bind; [apply local_nrp|]. intros flag _.
    destruct (f_desc f); try reflexivity.
    - destruct (flag =? cv); [|exact I]. apply nrp_check. intros _ Hu.
      apply nrp_bind; [apply safe_nrp, guarded_safe, Hu|]. intros [x sp'] _. exact I.
    - destruct (lookup_decl fl _) as [[]|]; try reflexivity; (destruct (flag =? cv); [|exact I]).
      + apply nrp_check. intros _ Hu.
        apply nrp_bind; [apply safe_nrp, guarded_safe, Hu|]. intros [x sp'] _.
        apply nrp_bind; [apply safe_nrp, enum_check_safe|]. intros; exact I.
      + apply nrp_bind; [apply rec_ok|]. intros [v sp'] _. exact I.
  Qed.

  Lemma typedef_nrp st id tid shift :
    safe_typedef tid = true -> no_rt_panic (add_typedef_field fl sch rec st id tid shift).
  Proof.
    unfold add_typedef_field, safe_typedef. intros Hs.
    destruct (negb (shift =? 0)); [reflexivity|].
    destruct (lookup_decl fl tid) as [td|]; [|reflexivity].
    destruct (type_total sch tid) as [[w| |]|]; try reflexivity.
    1: destruct (negb (w mod 8 =? 0)); [reflexivity|];
       destruct td; try reflexivity; try discriminate.
    all: apply nrp_bind; [apply rec_ok|]; intros [v sp'] _; exact I.
  Qed.

  Lemma payload_nrp d st m shift : no_rt_panic (add_payload_field sch d st m shift).
  Proof.
    unfold add_payload_field. destruct (negb (shift =? 0)); [reflexivity|].
    destruct (decl_payload_size d) as [szf|].
    - apply nrp_bind; [apply local_nrp|]. intros sz0 _.
      apply nrp_bind; [destruct m as [m|]; [destruct (sz0 <? m)|]; exact I|]. intros sz _.
      apply nrp_check. intros _ Hu.
      apply nrp_bind; [apply safe_nrp, guarded_safe, Hu|]. intros p _.
      apply nrp_bind; [apply safe_nrp, guarded_safe, Hu|]. intros; exact I.
    - destruct (offset_from_end sch d) as [[|off]|]; [exact I| |reflexivity].
      destruct (negb (N.pos off mod 8 =? 0)); [reflexivity|].
      apply nrp_check. intros _ _.
      assert (Hn : (len (st_span st) <? len (st_span st) - N.pos off / 8) = false)
        by (apply N.ltb_ge, N.le_sub_l).
      apply nrp_bind; [apply safe_nrp, guarded_safe, Hn|]. intros p _.
      apply nrp_bind; [apply safe_nrp, guarded_safe, Hn|]. intros; exact I.
  Qed.

  (** one field cannot panic at run time unless it is a typedef of an unguarded custom
      type, or an array whose parser can *)
  Lemma dec_field_nrp d pad f st chunk shift :
    (f_cond f = None -> is_bitfield fl f = false ->
     match f_desc f with
     | Typedef _ tid => safe_typedef tid = true
     | Array id w t _ sz => no_rt_panic (add_array_field oc fl sch rec lf d st id w t sz pad)
     | _ => True
     end) ->
    no_rt_panic (dec_field oc fl sch rec lf d pad f st chunk shift).
  Proof.
    intros H. destruct (f_cond f) as [c|] eqn:Ec.
    - unfold dec_field. rewrite Ec. apply nrp_bind; [apply optional_nrp|]. intros; exact I.
    - destruct (is_bitfield fl f) eqn:Eb; [apply safe_nrp, dec_field_bits_safe; assumption|].
      specialize (H eq_refl eq_refl). unfold dec_field. rewrite Ec, Eb.
      apply nrp_bind; [|intros; exact I].
      destruct (f_desc f); cbn [dec_other]; try exact I; try reflexivity;
        auto using typedef_nrp, payload_nrp.
  Qed.

  Theorem dec_fields_simple_nrp d : forall fs st chunk shift,
    forallb simple_field fs = true ->
    no_rt_panic (dec_fields oc fl sch rec lf d fs st chunk shift).
  Proof.
    induction fs as [|f fs IH]; intros st chunk shift Hb; [exact I|].
    cbn [forallb] in Hb. apply andb_true_iff in Hb. destruct Hb as [Hf Hb].
    rewrite dec_fields_cons. apply nrp_bind; [|intros [[st' chunk'] shift'] _; apply IH, Hb].
    apply dec_field_nrp. intros Ec Eb. unfold simple_field in Hf. rewrite Ec, Eb in Hf.
    destruct (f_desc f); try exact I; [discriminate Hf|exact Hf].
  Qed.
End Simple.

Definition simple_file (fl : file) (sch : schema) : Prop :=
  forall t d, lookup_decl fl t = Some d -> forallb (simple_field fl sch) (decl_fields d) = true.

Lemma rec_of_nrp fl (self : decl -> list byte -> dres (value * list byte)) :
  (forall t d sp, lookup_decl fl t = Some d -> no_rt_panic (self d sp)) ->
  forall t sp, no_rt_panic (rec_of self fl t sp).
Proof.
  intros Hs t sp. unfold rec_of.
  destruct (lookup_decl fl t) as [d|] eqn:El; [|reflexivity].
  destruct d as [| ? [w|] ? | | | | |]; try reflexivity; try (apply (Hs t _ sp El)).
  destruct (len sp <? w / 8) eqn:Hlen; [exact I|].
  apply nrp_bind; [apply safe_nrp, guarded_safe, Hlen|]. intros [x sp'] _. exact I.
Qed.

(** [good] is any class of declarations whose field lists do not panic at run time as long
    as the nested decoders do not; when every declaration of the file is in it, no
    [decode] of the file panics. *)
Section Whole.
  Variable oc : bool.
  Variable fl : file.
  Variable sch : schema.
  Variable good : decl -> Prop.
  Hypothesis fields_nrp : forall rec lf d sp,
    (forall t sp', no_rt_panic (rec t sp')) -> good d ->
    no_rt_panic (dec_fields oc fl sch rec lf d (decl_fields d) (init_state sp) [] 0).
  Hypothesis all_good : forall t d, lookup_decl fl t = Some d -> good d.

  Lemma decode_partial_nrp rec lf d p pobj :
    (forall t sp, no_rt_panic (rec t sp)) -> good d ->
    no_rt_panic (decode_partial oc fl sch rec lf d p pobj).
  Proof.
    intros Hrec Hd. unfold decode_partial.
    apply nrp_bind.
    { generalize (decl_constraints d). intros cs. induction cs as [|c cs IH]; [exact I|].
      destruct (get_num _ _ _ _ _); [|reflexivity].
      destruct (constraint_N _ _ _); [|reflexivity].
      destruct (_ =? _); [exact IH|exact I]. }
    intros _ _.
    destruct (decl_payload p); [|exact I].
    destruct (obj_payload pobj) as [buf|]; [|reflexivity].
    apply nrp_bind; [apply fields_nrp; assumption|]. intros st _.
    destruct (st_span st); [|exact I].
    apply nrp_bind; [apply safe_nrp, payload_entry_safe|]. intros; exact I.
  Qed.

  Theorem rust_dec_decl_nrp : forall fuel t d bs,
    lookup_decl fl t = Some d -> no_rt_panic (rust_dec_decl fuel oc fl sch d bs).
  Proof.
    induction fuel as [|fuel IH]; intros t d bs Hl; [exact I|].
    rewrite rust_dec_decl_S. pose proof (rec_of_nrp fl _ IH) as Hrec.
    destruct (get_parent fl d) as [p|] eqn:Ep.
    - unfold get_parent in Ep. destruct (decl_parent_id d) as [pid|]; [|discriminate].
      apply nrp_bind; [apply (IH pid p bs Ep)|]. intros [pv trailing] _.
      destruct pv; try reflexivity.
      apply nrp_bind; [apply decode_partial_nrp; [exact Hrec | apply (all_good t d Hl)]|].
      intros; exact I.
    - apply nrp_bind; [apply fields_nrp; [exact Hrec | apply (all_good t d Hl)]|].
      intros st _. apply nrp_bind; [apply safe_nrp, payload_entry_safe|]. intros; exact I.
  Qed.

  Theorem rust_decode_nrp fuel id bs : no_rt_panic (rust_decode fuel oc fl sch id bs).
  Proof. rewrite rust_decode_rec_of. apply rec_of_nrp, rust_dec_decl_nrp. Qed.
End Whole.

Theorem rust_decode_simple_nrp fuel oc fl sch id bs :
  simple_file fl sch -> no_rt_panic (rust_decode fuel oc fl sch id bs).
Proof.
  intros Hfile. apply rust_decode_nrp with (2 := Hfile).
  intros rec lf d sp Hrec Hd. apply dec_fields_simple_nrp; assumption.
Qed.

Definition simple_fileb (fl : file) (sch : schema) : bool :=
  forallb (fun d => forallb (simple_field fl sch) (decl_fields d)) (f_decls fl).

Lemma simple_fileb_sound fl sch : simple_fileb fl sch = true -> simple_file fl sch.
Proof. exact (lookup_decl_forallb _ fl). Qed.
