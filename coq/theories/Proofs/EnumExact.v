(** The emitted [TryFrom<uN>] match computes exactly the reference reading of an enum
    declaration, for every integer of the backing type. *)
From Coq Require Import NArith List String Bool Lia Permutation.
From PDL Require Import Base.Bits Lang.Ast Rust.Enum Proofs.ListFacts Proofs.GenPre.
Import ListNotations.
Open Scope N_scope.

(** Well-formedness the analyzer establishes (E14, E41, E43): no tag value declared
    AFTER a range lies inside that range.  Values declared before the range need no
    condition: their arms come first in the emitted match, as named tags come first in the
    reference reading; a later value inside the range would be shadowed by the range's arm. *)
Fixpoint wf_tagsb (tags : list tag) : bool :=
  match tags with
  | [] => true
  | TagRange _ lo hi _ :: rest =>
      forallb (fun p => negb ((lo <=? snd p) && (snd p <=? hi))) (flat_map tag_values rest)
      && wf_tagsb rest
  | _ :: rest => wf_tagsb rest
  end.

Definition tag_bounded (mx : N) (t : tag) : bool :=
  match t with
  | TagValue _ v => v <=? mx
  | TagRange _ lo hi nested => (lo <=? mx) && (hi <=? mx) && forallb (fun p => snd p <=? mx) nested
  | TagOther _ => true
  end.

Definition tags_bounded (mx : N) (tags : list tag) : bool := forallb (tag_bounded mx) tags.

Definition base_result (tags : list tag) (x : N) : option evariant :=
  match named_tag tags x with
  | Some id => Some (ENamed id x)
  | None => match enclosing_range tags x with
            | Some id => Some (ERange id x)
            | None => None
            end
  end.

Lemma spec_enum_eq tags w x :
  spec_enum_of_N tags w x =
  if 2 ^ w <=? x then None
  else match base_result tags x with
       | Some e => Some e
       | None => option_map (fun id => EOther id x) (enum_default_tag tags)
       end.
Proof.
  unfold spec_enum_of_N, base_result.
  destruct (2 ^ w <=? x), (named_tag tags x), (enclosing_range tags x), (enum_default_tag tags);
    reflexivity.
Qed.

Lemma spec_enum_value tags w x e : spec_enum_of_N tags w x = Some e -> evariant_to_N e = x.
Proof.
  unfold spec_enum_of_N.
  destruct (2 ^ w <=? x), (named_tag tags x), (enclosing_range tags x), (enum_default_tag tags);
    intros [= <-]; reflexivity.
Qed.

Lemma first_match_app_vals nested tail x :
  first_match (map (fun p : string * N => CVal (snd p) (fst p)) nested ++ tail) x =
  match find (fun p : string * N => snd p =? x) nested with
  | Some (id, _) => TOk (ENamed id x)
  | None => first_match tail x
  end.
Proof.
  induction nested as [|[id v] nested IH]; cbn [map app find first_match fst snd]; [reflexivity|].
  rewrite (N.eqb_sym v x).
  destruct (x =? v) eqn:Exv.
  - apply N.eqb_eq in Exv. subst. reflexivity.
  - exact IH.
Qed.

Lemma base_cases tags tail x :
  wf_tagsb tags = true ->
  first_match (flat_map tag_from_cases tags ++ tail) x =
  match base_result tags x with
  | Some e => TOk e
  | None => first_match tail x
  end.
Proof.
  unfold base_result, named_tag, enclosing_range.
  induction tags as [|t tags IH]; intros Hwf; [reflexivity|].
  destruct t as [id v|id lo hi nested|id]; cbn [flat_map tag_from_cases tag_values wf_tagsb] in *.
  - cbn [app first_match find fst snd]. rewrite (N.eqb_sym v x).
    destruct (N.eqb_spec x v) as [->|_]; [reflexivity | exact (IH Hwf)].
  - apply andb_prop in Hwf as [Hout Hwf].
    rewrite <- !app_assoc, first_match_app_vals, find_app.
    destruct (find (fun p : string * N => snd p =? x) nested) as [[nid nv]|]; [reflexivity|].
    cbn [app first_match find].
    destruct ((lo <=? x) && (x <=? hi)) eqn:Ein; [|exact (IH Hwf)].
    (* inside the range: no later value equals x *)
    rewrite (proj2 (find_none_iff _ _)); [reflexivity|].
    rewrite forallb_forall in Hout. intros p Hp. specialize (Hout p Hp).
    destruct (N.eqb_spec (snd p) x) as [Epx|]; [|reflexivity].
    rewrite Epx, Ein in Hout. discriminate.
  - exact (IH Hwf).
Qed.

Lemma base_result_bounded mx tags x e :
  tags_bounded mx tags = true -> base_result tags x = Some e -> x <= mx.
Proof.
  unfold base_result, named_tag, enclosing_range, tags_bounded. rewrite forallb_forall. intros Hb H.
  destruct (find _ (flat_map tag_values tags)) as [[i v]|] eqn:E.
  - apply find_some in E as [Hin Hv]. apply in_flat_map in Hin as (t & Ht & Hin).
    specialize (Hb t Ht). cbn [snd] in Hv.
    destruct t as [tid v'|tid lo hi nested|tid]; cbn [tag_values tag_bounded] in Hin, Hb.
    + destruct Hin as [[= _ ->]|[]]. lia.
    + apply andb_prop in Hb as [_ Hn]. rewrite forallb_forall in Hn. specialize (Hn _ Hin).
      cbn [snd] in Hn. lia.
    + destruct Hin.
  - destruct (find _ tags) as [t|] eqn:E2; [|discriminate].
    apply find_some in E2 as [Hin Ht]. specialize (Hb t Hin).
    destruct t as [tid v|tid lo hi nested|tid]; try discriminate. cbn [tag_bounded] in Hb. lia.
Qed.

Lemma windows_cover d (l : list (N * N)) : forall a x,
  windows_ok (a :: l) = true -> fst a <= x -> x <= snd (last (a :: l) d) ->
  exists p, In p (a :: l) /\ fst p <= x /\ x <= snd p.
Proof.
  induction l as [|b l IH]; intros a x Hw Hlo Hhi.
  - cbn in Hhi. exists a. split; [left; reflexivity | lia].
  - cbn [windows_ok] in Hw.
    apply andb_prop in Hw as [Hw Hrest]. apply andb_prop in Hw as [Hnz Hadj].
    destruct (N.le_gt_cases x (snd a)) as [Hle|Hgt]; [exists a; split; [left; reflexivity | lia]|].
    destruct (IH b x Hrest) as (p & Hin & Hp); [lia | exact Hhi |].
    exists p. split; [right; exact Hin | exact Hp].
Qed.

Lemma complete_covers tags mx x :
  enum_is_complete tags mx = Some true -> x <= mx ->
  exists e, base_result tags x = Some e.
Proof.
  unfold enum_is_complete. intros H Hx.
  destruct (sort_pairs (flat_map tag_span tags)) as [|first rest] eqn:Es; [discriminate|].
  injection H as H. apply andb_prop in H as [H Hw]. apply andb_prop in H as [Hf Hl].
  apply N.eqb_eq in Hf, Hl.
  destruct (windows_cover first rest first x Hw) as (p & Hin & Hlo & Hhi);
    [lia | rewrite <- Hl in Hx; exact Hx |].
  rewrite <- Es in Hin.
  apply (Permutation_in _ (Permutation_sym (sort_pairs_perm _))), in_flat_map in Hin as (t & Ht & Hp).
  unfold base_result.
  destruct (named_tag tags x) eqn:En; [eexists; reflexivity|].
  destruct t as [id v|id lo hi nested|id]; cbn [tag_span In] in Hp; [| |destruct Hp];
    destruct Hp as [<-|[]]; cbn [fst snd] in Hlo, Hhi.
  - (* a value tag with v = x: contradiction with named_tag = None *)
    exfalso. unfold named_tag in En.
    destruct (find _ (flat_map tag_values tags)) as [[i v']|] eqn:Ef; [discriminate|].
    assert (Hin2 : In (id, v) (flat_map tag_values tags)).
    { apply in_flat_map. exists (TagValue id v). split; [exact Ht | left; reflexivity]. }
    apply (proj1 (find_none_iff _ _) Ef) in Hin2. cbn [snd] in Hin2. lia.
  - unfold enclosing_range. destruct (find _ tags) eqn:Ef; [eexists; reflexivity|].
    exfalso. apply (proj1 (find_none_iff _ _) Ef) in Ht. cbn beta iota in Ht. lia.
Qed.

Lemma scalar_max_le64 w : w <= 64 -> scalar_max w = 2 ^ w - 1.
Proof.
  intros H. unfold scalar_max. destruct (64 <=? w) eqn:E; [|reflexivity].
  replace w with 64 by lia. reflexivity.
Qed.

Theorem rust_try_from_exact tags w bw c x :
  wf_tagsb tags = true ->
  tags_bounded (scalar_max w) tags = true ->
  integer_width w = Some bw ->
  enum_is_complete tags (scalar_max w) = Some c ->
  x < 2 ^ bw ->
  rust_enum_try_from tags w x =
  Some (match spec_enum_of_N tags w x with Some e => TOk e | None => TErr x end).
Proof.
  intros Hwf Hb Hbw Hc Hx.
  pose proof (integer_width_spec w) as Hw. rewrite Hbw in Hw.
  pose proof (scalar_max_le64 w) as Hmax. pose proof (pow2_pos w) as Hpw.
  unfold rust_enum_try_from, from_cases. rewrite Hbw, Hc. cbn [option_map]. f_equal.
  rewrite base_cases by exact Hwf. rewrite spec_enum_eq.
  destruct (base_result tags x) as [e|] eqn:Eb.
  - (* matched by a value or a range: x <= max < 2^w *)
    pose proof (base_result_bounded _ _ _ _ Hb Eb).
    replace (2 ^ w <=? x) with false by lia. reflexivity.
  - destruct (2 ^ w <=? x) eqn:Ebig.
    + (* at or above 2^w: only the error arm, which exists because bw > w *)
      assert (Hne : (bw =? w) = false) by (apply N.eqb_neq; intros ->; lia).
      destruct (enum_default_tag tags), c; cbn [negb app first_match option_map];
        rewrite ?Hne; try reflexivity.
      replace (x <=? scalar_max w) with false by lia. reflexivity.
    + (* below 2^w and uncovered: the enum is not complete *)
      destruct c; [destruct (complete_covers tags _ x Hc) as [e He]; [lia | congruence]|].
      destruct (enum_default_tag tags); cbn [negb app first_match option_map].
      * replace (x <=? scalar_max w) with true by lia. reflexivity.
      * rewrite orb_true_r. reflexivity.
Qed.

Corollary rust_try_from_back tags w bw c x e :
  wf_tagsb tags = true -> tags_bounded (scalar_max w) tags = true ->
  integer_width w = Some bw -> enum_is_complete tags (scalar_max w) = Some c -> x < 2 ^ bw ->
  rust_enum_try_from tags w x = Some (TOk e) -> evariant_to_N e = x.
Proof.
  intros Hwf Hb Hbw Hc Hx H.
  rewrite (rust_try_from_exact _ _ _ _ _ Hwf Hb Hbw Hc Hx) in H.
  destruct (spec_enum_of_N tags w x) eqn:E; [|discriminate].
  injection H as <-. exact (spec_enum_value _ _ _ _ E).
Qed.
