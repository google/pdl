(** C16 beyond the bit-field fragment: arrays with a static count (scalar, enum and
    struct elements), arrays of ANY shape followed by a padding field, typedef fields
    of a struct type, next to the bit-field fragment of Proofs/StaticSize.v.

    When the schema's sum over such a field list is Static n, every reference
    encoding of every value of that field list occupies exactly n bits. *)
From Coq Require Import NArith List String Bool Lia.
From Coq Require Import Strings.Byte.
From PDL Require Import Lang.Ast Lang.Sexp Analyzer.Schema Rust.Enum Sem.RefEncode
     Proofs.ListFacts Proofs.EncodeEqns Proofs.BitfieldEncode Proofs.AnalyzerSound Proofs.StaticSize Proofs.SchemaEnums.
Import ListNotations.
Open Scope N_scope.

Definition opt_N_eqb (a b : option N) : bool :=
  match a, b with Some x, Some y => x =? y | None, None => true | _, _ => false end.

Definition opt_str_eqb (a b : option string) : bool :=
  match a, b with Some x, Some y => String.eqb x y | None, None => true | _, _ => false end.

Lemma opt_N_eqb_eq a b : opt_N_eqb a b = true -> a = b.
Proof.
  destruct a as [x|], b as [y|]; cbn [opt_N_eqb]; try discriminate; [|reflexivity].
  intros H. apply N.eqb_eq in H. now subst.
Qed.

Lemma opt_str_eqb_eq a b : opt_str_eqb a b = true -> a = b.
Proof.
  destruct a as [x|], b as [y|]; cbn [opt_str_eqb]; try discriminate; [|reflexivity].
  intros H. apply String.eqb_eq in H. now subst.
Qed.

(** Same element width, element type and count (identifier and size modifier do not
    enter the encoding of the array itself). *)
Definition same_array (a b : fdesc) : bool :=
  match a, b with
  | Array _ w t _ s, Array _ w' t' _ s' => opt_N_eqb w w' && opt_str_eqb t t' && opt_N_eqb s s'
  | _, _ => false
  end.

(** an integer element (scalar, enum value) is emitted only at a whole number of octets *)
Lemma int_elem_bits (c : bool) w n ss :
  (if c && (w mod 8 =? 0) then Some [int_seg (nbytes w) n] else None) = Some ss -> 8 * seg_len ss = w.
Proof.
  destruct c; [|discriminate]. cbn [andb]. destruct (w mod 8 =? 0) eqn:Em; [|discriminate].
  intros [= <-]. apply seg_len_int_bits. now apply N.eqb_eq.
Qed.

Section Arrays.
  Variable fl : file.
  Variable sch : schema.
  Variable rec : string -> value -> option (list seg).
  Variable d : decl.
  Variable all_fields : list field.
  Variable cs : list constr.
  Variable obj : list (string * value).
  Variable payload : list seg.
  Hypothesis Hsch : schema_knows_enums fl sch.

  Definition is_struct_id (tid : string) : bool :=
    match lookup_decl fl tid with Some (DStruct _ _ _ _) => true | _ => false end.

  Definition is_enum_id (tid : string) : bool :=
    match lookup_decl fl tid with Some (DEnum _ _ _) => true | _ => false end.

  (** The recursive encoder is sound for struct types of static total size. *)
  Hypothesis Hrec : forall tid v ss m,
    is_struct_id tid = true ->
    rec tid v = Some ss -> type_total sch tid = Some (SStatic m) -> 8 * seg_len ss = m.

  Definition elem_ok (w : option N) (t : option string) : bool :=
    match w, t with
    | Some _, _ => true
    | None, Some tid => is_enum_id tid || is_struct_id tid
    | None, None => false
    end.

  (** what may precede a padding field *)
  Definition arr_any (f : field) : bool :=
    match f_cond f, f_desc f with
    | None, Array _ _ _ _ _ => true
    | _, _ => false
    end.

  (** [d] must declare the array the same way: the reference looks it up by name in [d] *)
  Definition arr_static (f : field) : bool :=
    match f_cond f, f_desc f with
    | None, Array id w t _ (Some _) =>
        elem_ok w t &&
        match array_field d id with
        | Some g => same_array (f_desc g) (f_desc f)
        | None => false
        end
    | _, _ => false
    end.

  Definition td_struct (f : field) : bool :=
    match f_cond f, f_desc f with
    | None, Typedef _ tid => is_struct_id tid
    | _, _ => false
    end.

  Definition pad_field (f : field) : bool :=
    match f_cond f, f_desc f with
    | None, Padding _ => true
    | _, _ => false
    end.

  Definition sa_field (f : field) : bool :=
    bf_field fl f || arr_static f || td_struct f.

  (** [sa_]: static size, with arrays -- the field lists on which a Static sum is shown
      exact.  A field followed by a padding field must be an array (then any array); the
      others are [sa_field]s, or a padding field itself. *)
  Fixpoint sa_fields (fs : list field) : bool :=
    match fs with
    | [] => true
    | f :: rest =>
        (match next_padding rest with
         | Some _ => arr_any f
         | None => sa_field f || pad_field f
         end) && sa_fields rest
    end.

  Definition elem_bits (w : option N) (t : option string) : option N :=
    match w, t with
    | Some w, _ => Some w
    | None, Some tid => match type_total sch tid with Some (SStatic m) => Some m | _ => None end
    | None, None => None
    end.

  Lemma elem_sound w t v ss m :
    elem_ok w t = true -> ref_enc_elem fl rec w t v = Some ss -> elem_bits w t = Some m ->
    8 * seg_len ss = m.
  Proof.
    unfold elem_ok, ref_enc_elem, elem_bits. intros Hok Hr Hb.
    destruct w as [w|].
    - injection Hb as <-. destruct v as [n| | |]; try discriminate. exact (int_elem_bits _ _ _ _ Hr).
    - destruct t as [tid|]; [|discriminate].
      destruct (type_total sch tid) as [[m'| |]|] eqn:Et; try discriminate. injection Hb as ->.
      unfold is_enum_id, is_struct_id in Hok.
      destruct (lookup_decl fl tid) as [[]|] eqn:El; try discriminate.
      + (* DEnum: the schema knows its width *)
        rewrite (Hsch tid tags width) in Et by (right; eauto). injection Et as <-.
        destruct v as [n| | |]; try discriminate.
        destruct (spec_enum_of_N tags width n); [|discriminate]. exact (int_elem_bits true _ _ _ Hr).
      + (* DStruct *)
        apply (Hrec tid v ss m); [|exact Hr|exact Et].
        unfold is_struct_id. now rewrite El.
  Qed.

  Lemma elems_sound w t m : elem_ok w t = true -> elem_bits w t = Some m ->
    forall vs ebs, ref_enc_elems fl rec w t vs = Some ebs ->
                   8 * seg_len (List.concat ebs) = len vs * m.
  Proof.
    intros Hok Hb. induction vs as [|v vs IH]; intros ebs H; cbn [ref_enc_elems] in H.
    - inversion H; subst. reflexivity.
    - destruct (ref_enc_elem fl rec w t v) as [b|] eqn:Eb; [|discriminate].
      destruct (ref_enc_elems fl rec w t vs) as [r|]; [|discriminate].
      inversion H; subst ebs. cbn [List.concat]. rewrite seg_len_app, len_cons.
      pose proof (elem_sound w t v b m Hok Eb Hb) as H1.
      pose proof (IH r eq_refl) as H2. lia.
  Qed.

  Lemma array_sound f id w t md s ebs m :
    arr_static f = true -> f_desc f = Array id w t md (Some s) ->
    ref_array_elems fl rec d obj id = Some ebs -> elem_bits w t = Some m ->
    8 * seg_len (List.concat ebs) = s * m.
  Proof.
    unfold arr_static, ref_array_elems. intros Hf Hd Hr Hb. rewrite Hd in Hf.
    destruct (f_cond f); [discriminate|]. apply andb_prop in Hf. destruct Hf as [Hok Hsame].
    destruct (array_field d id) as [g|]; [|discriminate].
    destruct (assoc id obj) as [[| |vs|]|]; try discriminate.
    unfold same_array in Hsame.
    destruct (f_desc g) as [| | | | | | | | | |id' w' t' md' s'| | | |]; try discriminate.
    apply andb_prop in Hsame. destruct Hsame as [Hsame Hs].
    apply andb_prop in Hsame. destruct Hsame as [Hw Ht].
    apply opt_N_eqb_eq in Hw, Hs. apply opt_str_eqb_eq in Ht. subst w' t' s'.
    destruct (ref_enc_elems fl rec w t vs) as [ebs'|] eqn:Ee; [|discriminate].
    destruct (len vs =? s) eqn:El; [|discriminate]. inversion Hr; subst ebs'.
    apply N.eqb_eq in El. rewrite (elems_sound w t m Hok Hb vs ebs Ee). now rewrite El.
  Qed.

  Lemma array_size f id w t md s m :
    f_cond f = None -> f_desc f = Array id w t md (Some s) ->
    field_size sch d f = Some (SStatic m) ->
    exists e, elem_bits w t = Some e /\ m = s * e.
  Proof.
    unfold field_size, elem_bits. intros Hc Hd H. rewrite Hc, Hd in H.
    destruct w as [w|].
    - destruct (fits_usize (s * w)); [|discriminate]. inversion H. eauto.
    - destruct t as [tid|]; [|discriminate].
      destruct (type_total sch tid) as [[x| |]|]; try discriminate.
      cbn [size_mul_n] in H. destruct (fits_usize (x * s)); [|discriminate].
      inversion H. exists x. split; [reflexivity | lia].
  Qed.

  Lemma annotate_static_acc : forall fs acc p n psz,
    annotate_fields sch d fs acc p = Some (SStatic n, psz) -> exists a, acc = SStatic a.
  Proof.
    induction fs as [|f rest IH]; intros acc p n psz H.
    - injection H as -> _. eauto.
    - destruct (is_payload f) eqn:Ep.
      + destruct (annotate_fields_payload_step _ _ _ _ _ _ _ Ep H) as (fsz & _ & H'). exact (IH _ _ _ _ H').
      + destruct (annotate_fields_step _ _ _ _ _ _ _ Ep H) as (fsz & a' & _ & Ha & H').
        destruct (IH _ _ _ _ H') as [a1 ->].
        destruct (size_add_static_inv _ _ _ Ha) as (x & y & -> & _). eauto.
  Qed.

  Lemma annotate_step f rest a p n psz :
    is_payload f = false ->
    annotate_fields sch d (f :: rest) (SStatic a) p = Some (SStatic n, psz) ->
    exists fsz c,
      field_size sch d f = Some fsz /\
      match next_padding rest with Some p8 => SStatic p8 | None => fsz end = SStatic c /\
      annotate_fields sch d rest (SStatic (a + c)) p = Some (SStatic n, psz).
  Proof.
    intros Hpl H. destruct (annotate_fields_step _ _ _ _ _ _ _ Hpl H) as (fsz & a' & Hfs & Ha & H').
    destruct (annotate_static_acc _ _ _ _ _ H') as [a1 ->].
    destruct (size_add_static_inv _ _ _ Ha) as (x & c & [= <-] & Hc & -> & _). eauto.
  Qed.

  (** [a] bits summed by the schema so far, [bits] of them still pending in the open
      bit-field group; [n] the schema's final sum. *)
  Definition step_ok (rest : list field) (a : N) (p : size) (n : N) (psz : size) (bits : N)
             (ss : list seg) : Prop :=
    exists a' acc' bits' ss',
      annotate_fields sch d rest (SStatic a') p = Some (SStatic n, psz) /\
      ref_enc_fields fl rec d all_fields cs obj payload rest acc' bits' = Some ss' /\
      a + 8 * seg_len ss + bits' = a' + 8 * seg_len ss' + bits.

  Lemma step_bf f rest a p n psz acc bits ss :
    bf_field fl f = true -> next_padding rest = None ->
    annotate_fields sch d (f :: rest) (SStatic a) p = Some (SStatic n, psz) ->
    ref_enc_fields fl rec d all_fields cs obj payload (f :: rest) acc bits = Some ss ->
    step_ok rest a p n psz bits ss.
  Proof.
    intros Hf Hnp Ha Hr.
    destruct (annotate_step f rest a p n psz (bf_not_payload fl f Hf) Ha) as (fsz & c & Hfs & Hc & Ha').
    rewrite Hnp in Hc. subst fsz.
    apply (field_size_agrees fl _ _ _ _ (knows_agrees fl sch Hsch) Hf) in Hfs. injection Hfs as ->.
    destruct (ref_step_bf fl rec d all_fields obj payload cs f rest acc bits ss Hf Hr)
      as (acc' & bits' & ss' & Hr' & E).
    exists (a + frag_width fl f), acc', bits', ss'. split; [exact Ha'|]. split; [exact Hr' | lia].
  Qed.

  (** A field outside the bit-field groups whose reference segments have exactly the
      bits the schema counts for it: the two sides advance together. *)
  Definition plain_sound (f : field) (rest : list field) : Prop :=
    (f_cond f = None /\ is_bitfield fl f = false /\ is_payload f = false)
    /\ forall fsz c a1,
        field_size sch d f = Some fsz ->
        match next_padding rest with Some p8 => SStatic p8 | None => fsz end = SStatic c ->
        ref_plain_here fl rec d obj payload f rest = Some a1 -> 8 * seg_len a1 = c.

  Lemma step_plain f rest a p n psz acc bits ss :
    plain_sound f rest ->
    annotate_fields sch d (f :: rest) (SStatic a) p = Some (SStatic n, psz) ->
    ref_enc_fields fl rec d all_fields cs obj payload (f :: rest) acc bits = Some ss ->
    step_ok rest a p n psz bits ss.
  Proof.
    intros [(Hc & Hnb & Hpl) Hsound] Ha Hr.
    destruct (annotate_step f rest a p n psz Hpl Ha) as (fsz & c & Hfs & Hcc & Ha').
    rewrite ref_enc_fields_cons, Hc, Hnb in Hr.
    destruct (bits =? 0) eqn:Eb; [|discriminate]. apply N.eqb_eq in Eb. cbn [negb] in Hr. unfold sapp in Hr.
    destruct (ref_plain_here fl rec d obj payload f rest) as [a1|] eqn:Eh; [|discriminate].
    destruct (ref_enc_fields fl rec d all_fields cs obj payload rest 0 0) as [b|] eqn:Er; [|discriminate].
    injection Hr as <-. exists (a + c), 0, 0, b. split; [exact Ha'|]. split; [exact Er|].
    rewrite seg_len_app, <- (Hsound fsz c a1 Hfs Hcc eq_refl). lia.
  Qed.

  Lemma arr_any_shape f : arr_any f = true ->
    f_cond f = None /\ exists id w t md s, f_desc f = Array id w t md s.
  Proof.
    unfold arr_any. destruct (f_cond f); [discriminate|].
    destruct (f_desc f); try discriminate. intros _. split; [reflexivity|]. eauto 6.
  Qed.

  Lemma array_here f rest id w t md s a1 :
    f_desc f = Array id w t md s -> ref_plain_here fl rec d obj payload f rest = Some a1 ->
    exists ebs, ref_array_elems fl rec d obj id = Some ebs /\
      match next_padding rest with
      | Some p8 => 8 * seg_len a1 = p8
      | None => a1 = List.concat ebs
      end.
  Proof.
    unfold ref_plain_here. intros ->. rewrite next_padding_spec.
    destruct (ref_array_elems fl rec d obj id) as [ebs|]; [|discriminate]. cbv zeta.
    destruct (match decl_element_size d id with Some _ => all_same_length ebs | None => true end);
      [|discriminate].
    intros H. exists ebs. split; [reflexivity|].
    destruct (next_is_padding rest) as [pn|]; cbn [option_map].
    - destruct (seg_len (List.concat ebs) <=? pn) eqn:El; [|discriminate]. apply N.leb_le in El.
      injection H as <-. rewrite seg_len_app, seg_len_raw_zeros. clear - El. lia.
    - now injection H.
  Qed.

  (** both sides count the padded size, whatever the array *)
  Lemma arr_any_plain f rest p8 :
    arr_any f = true -> next_padding rest = Some p8 -> plain_sound f rest.
  Proof.
    intros Hf Hnp. destruct (arr_any_shape f Hf) as (Hc & id & w & t & md & s & Hd).
    split; [unfold is_bitfield, is_payload; rewrite Hd; auto|].
    intros fsz c a1 _. rewrite Hnp. intros [= <-] Hh.
    destruct (array_here f rest id w t md s a1 Hd Hh) as (ebs & _ & Hp). now rewrite Hnp in Hp.
  Qed.

  Lemma arr_static_shape f : arr_static f = true ->
    f_cond f = None /\ exists id w t md s, f_desc f = Array id w t md (Some s).
  Proof.
    unfold arr_static. destruct (f_cond f); [discriminate|].
    destruct (f_desc f) as [| | | | | | | | | |id w t md [s|]| | | |]; try discriminate.
    intros _. split; [reflexivity|]. eauto 6.
  Qed.

  Lemma arr_static_plain f rest :
    arr_static f = true -> next_padding rest = None -> plain_sound f rest.
  Proof.
    intros Hf Hnp. destruct (arr_static_shape f Hf) as (Hc & id & w & t & md & s & Hd).
    split; [unfold is_bitfield, is_payload; rewrite Hd; auto|].
    intros fsz c a1 Hfs. rewrite Hnp. intros -> Hh.
    destruct (array_size f id w t md s c Hc Hd Hfs) as (e & He & ->).
    destruct (array_here f rest id w t md (Some s) a1 Hd Hh) as (ebs & Ee & Hp).
    rewrite Hnp in Hp. subst a1.
    exact (array_sound f id w t md s ebs e Hf Hd Ee He).
  Qed.

  Lemma td_struct_plain f rest : td_struct f = true -> next_padding rest = None -> plain_sound f rest.
  Proof.
    unfold td_struct, plain_sound, field_size, ref_plain_here, is_bitfield, is_payload, is_struct_id.
    destruct (f_cond f); [discriminate|].
    destruct (f_desc f) as [| | | | | | | | | | | | |id t| ]; try discriminate. intros Hst ->.
    split; [destruct (lookup_decl fl t) as [[]|]; try discriminate; auto|].
    intros fsz c a1 Hfs -> Hh. destruct (assoc id obj) as [v|]; [|discriminate].
    apply (elem_sound None (Some t) v a1 c); [|exact Hh|cbn [elem_bits]; now rewrite Hfs].
    cbn [elem_ok]. unfold is_struct_id. rewrite Hst. apply orb_true_r.
  Qed.

  Lemma pad_field_plain f rest : pad_field f = true -> next_padding rest = None -> plain_sound f rest.
  Proof.
    unfold pad_field, plain_sound, field_size, ref_plain_here, is_bitfield, is_payload.
    destruct (f_cond f); [discriminate|]. destruct (f_desc f); try discriminate. intros _ ->.
    split; [auto|]. now intros fsz c a1 [= <-] [= <-] [= <-].
  Qed.

  (** a field of the class, given what follows it, sits in a bit-field group or is sound
      on its own *)
  Lemma sa_field_cases f rest :
    match next_padding rest with Some _ => arr_any f | None => sa_field f || pad_field f end = true ->
    (bf_field fl f = true /\ next_padding rest = None) \/ plain_sound f rest.
  Proof.
    destruct (next_padding rest) as [p8|] eqn:Enp; intros Hf.
    - right. exact (arr_any_plain f rest p8 Hf Enp).
    - unfold sa_field in Hf. apply orb_prop in Hf. destruct Hf as [Hf|Hf]; [|right; now apply pad_field_plain].
      apply orb_prop in Hf. destruct Hf as [Hf|Hf]; [|right; now apply td_struct_plain].
      apply orb_prop in Hf. destruct Hf as [Hf|Hf]; [now left | right; now apply arr_static_plain].
  Qed.

  Theorem static_exact_arrays_gen : forall fs a p n psz acc bits ss,
    sa_fields fs = true ->
    annotate_fields sch d fs (SStatic a) p = Some (SStatic n, psz) ->
    ref_enc_fields fl rec d all_fields cs obj payload fs acc bits = Some ss ->
    a + 8 * seg_len ss = n + bits.
  Proof.
    induction fs as [|f rest IH]; intros a p n psz acc bits ss Hfr Ha Hr.
    - cbn [annotate_fields] in Ha. cbn [ref_enc_fields] in Hr.
      destruct (bits =? 0) eqn:Eb; [|discriminate]. apply N.eqb_eq in Eb.
      injection Ha as <- _. injection Hr as <-. change (seg_len []) with 0. lia.
    - cbn [sa_fields] in Hfr. apply andb_prop in Hfr. destruct Hfr as [Hf Hrest].
      assert (Hstep : step_ok rest a p n psz bits ss).
      { destruct (sa_field_cases f rest Hf) as [[Hbf Hnp] | Hpl].
        - exact (step_bf f rest a p n psz acc bits ss Hbf Hnp Ha Hr).
        - exact (step_plain f rest a p n psz acc bits ss Hpl Ha Hr). }
      destruct Hstep as (a' & acc' & bits' & ss' & Ha' & Hr' & Heq).
      pose proof (IH a' p n psz acc' bits' ss' Hrest Ha' Hr') as Hi. lia.
  Qed.

  Theorem static_exact_arrays fs n psz ss :
    sa_fields fs = true ->
    annotate_fields sch d fs (SStatic 0) (SStatic 0) = Some (SStatic n, psz) ->
    ref_enc_fields fl rec d all_fields cs obj payload fs 0 0 = Some ss ->
    8 * seg_len ss = n.
  Proof.
    intros Hfr Ha Hr. pose proof (static_exact_arrays_gen fs 0 _ n psz 0 0 ss Hfr Ha Hr). lia.
  Qed.

  (** without padding fields the fragment is a predicate on single fields *)
  Lemma sa_field_not_padding f : sa_field f = true -> forall k, f_desc f <> Padding k.
  Proof.
    unfold sa_field, bf_field, arr_static, td_struct. intros H k E. rewrite E in H.
    destruct (f_cond f); discriminate.
  Qed.

  Lemma sa_fields_of_forallb : forall fs, forallb sa_field fs = true -> sa_fields fs = true.
  Proof.
    induction fs as [|f rest IH]; [reflexivity|]. cbn [forallb sa_fields]. intros H.
    apply andb_prop in H. destruct H as [Hf Hrest]. rewrite (IH Hrest), andb_true_r.
    assert (Hnp : next_padding rest = None).
    { destruct rest as [|g rest']; [reflexivity|]. cbn [next_padding].
      cbn [forallb] in Hrest. apply andb_prop in Hrest. destruct Hrest as [Hg _].
      pose proof (sa_field_not_padding g Hg) as Hn.
      destruct (f_desc g); try reflexivity. exfalso. eapply Hn. reflexivity. }
    rewrite Hnp, Hf. reflexivity.
  Qed.

  Theorem static_exact_arrays_fields fs n psz ss :
    forallb sa_field fs = true ->
    annotate_fields sch d fs (SStatic 0) (SStatic 0) = Some (SStatic n, psz) ->
    ref_enc_fields fl rec d all_fields cs obj payload fs 0 0 = Some ss ->
    8 * seg_len ss = n.
  Proof. intros Hf. apply static_exact_arrays. now apply sa_fields_of_forallb. Qed.
End Arrays.

(** Discharging [Hrec]: for the schema [mk_schema] computes, the reference's own recursive
    encoder is sound on every struct that is a root of the bit-field fragment (no parent,
    no constraints, bit-field fields only); that is [static_total_exact_real_schema]. *)
Theorem rec_sound_fragment_structs fuel fl sch :
  NoDup (decl_id_list (f_decls fl)) -> mk_schema fl = Some sch ->
  (forall i cs fs p, In (DStruct i cs fs p) (f_decls fl) -> root_of_fragment fl (DStruct i cs fs p)) ->
  forall tid v ss m,
    is_struct_id fl tid = true ->
    ref_rec_of (ref_enc_decl fuel fl) fl tid v = Some ss ->
    type_total sch tid = Some (SStatic m) -> 8 * seg_len ss = m.
Proof.
  intros Hnd Hmk Hroots tid v ss m Hs Hr Ht. unfold is_struct_id in Hs. unfold ref_rec_of in Hr.
  destruct (lookup_decl fl tid) as [d|] eqn:El; [|discriminate].
  assert (Hroot : root_of_fragment fl d)
    by (destruct d; try discriminate Hs; apply Hroots; exact (lookup_decl_In _ _ _ El)).
  destruct v as [| | |o]; try discriminate. destruct (obj_payload o) as [pl|]; [|discriminate].
  destruct fuel as [|fuel]; [discriminate|]. cbn [ref_enc_decl] in Hr.
  rewrite (root_decl_parent fl d (proj1 Hroot)), (root_decl_constraints fl d (proj1 Hroot)) in Hr.
  destruct (ref_enc_fields _ _ d _ [] o _ (decl_fields d) 0 0) as [bs|] eqn:Eb; [|discriminate].
  injection Hr as <-. exact (static_total_exact_real_schema _ _ _ _ _ _ _ _ _ _ Hnd Hmk El Hroot Ht Eb).
Qed.

Open Scope string_scope.

Definition fld (x : fdesc) : field := mkField x None.

Definition ex_enum : decl := DEnum "E" [TagValue "A" 1; TagValue "B" 2] 8.
Definition ex_struct : decl := DStruct "S" [] [fld (Scalar "x" 8); fld (Scalar "y" 16)] None.

(** packet P { a:3, b:5, e:E, xs:16[2], ys:8[3], _padding_[5], es:E[2], s:S, ss:S[2], c:8 } *)
Definition ex_fs : list field :=
  [ fld (Scalar "a" 3); fld (Scalar "b" 5); fld (Typedef "e" "E");
    fld (Array "xs" (Some 16) None None (Some 2));
    fld (Array "ys" (Some 8) None None (Some 3)); fld (Padding 5);
    fld (Array "es" None (Some "E") None (Some 2));
    fld (Typedef "s" "S");
    fld (Array "ss" None (Some "S") None (Some 2));
    fld (Scalar "c" 8) ].

Definition ex_packet : decl := DPacket "P" [] ex_fs None.
Definition ex_fl : file := mkFile BigEndian [ex_enum; ex_struct; ex_packet].
(** [mk_schema ex_fl] succeeds ([ex_rec_sound] evaluates it): the fallback is never taken *)
Definition ex_sch : schema := match mk_schema ex_fl with Some s => s | None => [] end.
Definition ex_rec : string -> value -> option (list seg) := ref_rec_of (ref_enc_decl 3 ex_fl) ex_fl.

Definition ex_obj : list (string * value) :=
  [ ("a", VNum 5); ("b", VNum 17); ("e", VNum 2);
    ("xs", VList [VNum 258; VNum 772]);
    ("ys", VList [VNum 1; VNum 2; VNum 3]);
    ("es", VList [VNum 1; VNum 2]);
    ("s", VObj [("x", VNum 7); ("y", VNum 513)]);
    ("ss", VList [VObj [("x", VNum 8); ("y", VNum 1)]; VObj [("x", VNum 9); ("y", VNum 2)]]);
    ("c", VNum 255) ].

(** the hypotheses of [static_exact_arrays] hold of this field list and value: the
    schema says Static 184 and the reference encoding has 23 octets *)
Example ex_fragment : sa_fields ex_fl ex_packet ex_fs = true.
Proof. vm_compute. reflexivity. Qed.

Example ex_fields_not_all_plain : forallb (sa_field ex_fl ex_packet) ex_fs = false.
Proof. vm_compute. reflexivity. Qed.

Example ex_schema :
  annotate_fields ex_sch ex_packet ex_fs (SStatic 0) (SStatic 0) = Some (SStatic 184, SStatic 0).
Proof. vm_compute. reflexivity. Qed.

Example ex_reference :
  option_map (render BigEndian)
             (ref_enc_fields ex_fl ex_rec ex_packet ex_fs [] ex_obj [] ex_fs 0 0)
  = Some ["141"; "002"; "001"; "002"; "003"; "004"; "001"; "002"; "003"; "000"; "000";
          "001"; "002"; "007"; "002"; "001"; "008"; "000"; "001"; "009"; "000"; "002";
          "255"]%byte.
Proof. vm_compute. reflexivity. Qed.

Example ex_reference_length :
  option_map seg_len (ref_enc_fields ex_fl ex_rec ex_packet ex_fs [] ex_obj [] ex_fs 0 0) = Some 23.
Proof. vm_compute. reflexivity. Qed.

(** The two section hypotheses hold of this file, its schema and the reference's own
    recursive encoder, so the theorem applies to EVERY value of P. *)
Lemma ex_knows_enums : schema_knows_enums ex_fl ex_sch.
Proof. apply mk_schema_knows_enums; vm_compute; reflexivity. Qed.

Lemma ex_rec_sound tid v ss m :
  is_struct_id ex_fl tid = true ->
  ex_rec tid v = Some ss -> type_total ex_sch tid = Some (SStatic m) -> 8 * seg_len ss = m.
Proof.
  apply rec_sound_fragment_structs.
  - apply scope_new_nodup. vm_compute. reflexivity.
  - vm_compute. reflexivity.
  - intros i cs fs p [E|[E|[E|[]]]]; try discriminate E. rewrite <- E.
    split; [eexists; eexists; right; reflexivity | vm_compute; reflexivity].
Qed.

Theorem ex_every_value obj ss :
  ref_enc_fields ex_fl ex_rec ex_packet ex_fs [] obj [] ex_fs 0 0 = Some ss ->
  8 * seg_len ss = 184.
Proof.
  intros H.
  exact (static_exact_arrays ex_fl ex_sch ex_rec ex_packet ex_fs [] obj [] ex_knows_enums
                             ex_rec_sound ex_fs 184 (SStatic 0) ss ex_fragment ex_schema H).
Qed.

(** Why a padding field must follow an array: [check_padding_fields] (analyzer.rs) rejects
    one that does not, so these field lists never reach [Schema::new]; on them the schema's
    sum (which replaces the size of WHATEVER precedes the padding by the padded size) and
    the reference (which pads arrays only) disagree. *)
Definition cex_fs : list field := [fld (Scalar "a" 8); fld (Padding 4)].
Definition cex_d : decl := DPacket "Q" [] cex_fs None.

Example cex_schema :
  annotate_fields [] cex_d cex_fs (SStatic 0) (SStatic 0) = Some (SStatic 32, SStatic 0).
Proof. vm_compute. reflexivity. Qed.

Example cex_reference :
  option_map seg_len
    (ref_enc_fields (mkFile LittleEndian [cex_d]) (fun _ _ => None) cex_d cex_fs []
                    [("a", VNum 1)] [] cex_fs 0 0) = Some 1.
Proof. vm_compute. reflexivity. Qed.

Print Assumptions static_exact_arrays_gen.
Print Assumptions static_exact_arrays.
Print Assumptions static_exact_arrays_fields.
Print Assumptions ex_every_value.
