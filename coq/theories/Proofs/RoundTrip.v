(** C02 / C04 on the bit-field fragment (scalars, enum typedefs, fixed fields, reserved
    bits in any composition): the emitted decoder, run on the reference encoding of a
    value followed by any bytes, returns the value's data fields and those bytes, or the
    generator refused (a group wider than 64 bits).
    A completed chunk is seen as a list of items (field, value, width); [dec_chunk_reads]
    is what the decoder does with a chunk whose fields lie one after the other from bit 0,
    and what is proved about the decoder on bit-fields, here and in [DecodeConverse] and
    [RoundTripArrays], is read off that equation. *)
From Coq Require Import NArith ZArith List String Bool Lia.
From Coq Require Import Strings.Byte.
From PDL Require Import Base.Bits Base.Outcome Lang.Ast Lang.Sexp Analyzer.Schema Rust.Enum
     Sem.RefEncode Rust.Encode Rust.Decode Proofs.ListFacts Proofs.GenPre Proofs.Pack Proofs.EncodeEqns
     Proofs.BitfieldEncode Proofs.EncodeRef Proofs.DecodeSteps.
Import ListNotations.
Open Scope N_scope.

(** Shift, mask and cast yield the [w] bits at [sh] of a chunk value of [T] bits, for
    the Rust types [integer_width] picks ([w <= vtw], [T <= ctw]); the mask is left out
    only where it would change nothing. *)
Lemma chunk_value_extract cv sh w T vtw ctw (single : bool) :
  cv < 2 ^ T -> sh + w <= T -> w <= vtw -> T <= ctw ->
  (single = true -> sh = 0 /\ w = T) ->
  chunk_value single cv ctw sh w vtw = extract sh w cv.
Proof.
  intros Hcv Hsw Hwv HT Hsingle. unfold chunk_value, extract. rewrite !N.shiftr_div_pow2, !N.land_ones.
  destruct single; cbn [negb andb].
  - destruct (Hsingle eq_refl) as [-> ->]. rewrite N.pow_0_r, N.div_1_r, (N.mod_small _ _ Hcv).
    destruct (vtw <? ctw); [|reflexivity]. exact (mod_pow2_small _ _ _ Hcv Hwv).
  - destruct (w <? vtw) eqn:Ewt.
    + destruct (vtw <? ctw); [|reflexivity].
      apply (mod_pow2_small _ w); [apply N.mod_lt; pose proof (pow2_pos w); lia | exact Hwv].
    + assert (w = vtw) by lia. subst vtw.
      destruct (w <? ctw) eqn:Ec; [reflexivity|].
      (* the field fills the whole chunk *)
      assert (sh = 0) by lia. assert (T = w) by lia. subst sh T.
      rewrite N.pow_0_r, N.div_1_r. symmetry. now apply N.mod_small.
Qed.

Lemma read_back pre v w post (single : bool) vtw ctw :
  group_ok pre -> v < 2 ^ w -> group_ok post ->
  w <= vtw ->
  group_bits (pre ++ (v, w) :: post) <= ctw ->
  (single = true -> pre = [] /\ post = []) ->
  (if vtw <? ctw
   then (if negb single && (w <? vtw)
         then N.land (N.shiftr (group_sum (pre ++ (v, w) :: post) 0) (group_bits pre)) (N.ones w)
         else N.shiftr (group_sum (pre ++ (v, w) :: post) 0) (group_bits pre)) mod 2 ^ vtw
   else (if negb single && (w <? vtw)
         then N.land (N.shiftr (group_sum (pre ++ (v, w) :: post) 0) (group_bits pre)) (N.ones w)
         else N.shiftr (group_sum (pre ++ (v, w) :: post) 0) (group_bits pre))) = v.
Proof.
  intros Hpre Hv Hpost Hw Hcw Hsingle.
  assert (Hall : group_ok (pre ++ (v, w) :: post))
    by (apply Forall_app; split; [|constructor]; assumption).
  pose proof (group_sum_lt _ Hall) as Hb.
  rewrite <- (extract_group_sum pre v w post Hpre Hv Hpost) at 5.
  apply (chunk_value_extract _ _ _ _ _ _ _ Hb); [|exact Hw|exact Hcw|].
  - clear. induction pre as [|[a b] pre IH]; cbn [app group_bits]; lia.
  - intros Hs. destruct (Hsingle Hs) as [-> ->]. cbn [app group_bits]. lia.
Qed.

Lemma of_E_bytes_E e n v : v < 256 ^ N.of_nat n -> of_E e (bytes_E e n v) = v.
Proof.
  intros H. destruct e; cbn [of_E bytes_E].
  - now apply of_le_le_bytes_small.
  - rewrite of_be_be_bytes. now apply N.mod_small.
Qed.

Lemma bytes_E_of_E e (bs : list byte) : bytes_E e (List.length bs) (of_E e bs) = bs.
Proof.
  destruct e; cbn [bytes_E of_E].
  - apply le_bytes_of_le.
  - unfold be_bytes, of_be. rewrite <- (rev_length bs), le_bytes_of_le. apply rev_involutive.
Qed.

Lemma pow256_nbytes bits : bits mod 8 = 0 -> 256 ^ N.of_nat (nbytes bits) = 2 ^ bits.
Proof.
  intros H. unfold nbytes. rewrite N2Nat.id, pow256. f_equal.
  pose proof (N.div_mod bits 8). lia.
Qed.

Lemma bytes_E_span e w v (tl : list byte) :
  w mod 8 = 0 -> v < 2 ^ w ->
  (len (bytes_E e (nbytes w) v ++ tl) <? w / 8) = false
  /\ of_E e (firstn (nbytes w) (bytes_E e (nbytes w) v ++ tl)) = v
  /\ skipn (nbytes w) (bytes_E e (nbytes w) v ++ tl) = tl.
Proof.
  intros Hal Hv. pose proof (bytes_E_length e (nbytes w) v) as Hlen.
  rewrite firstn_app, skipn_app, Hlen, Nat.sub_diag, firstn_all2, skipn_all2
    by (rewrite Hlen; apply Nat.le_refl).
  cbn [firstn skipn app]. rewrite app_nil_r, of_E_bytes_E by (now rewrite pow256_nbytes).
  repeat split. unfold len. rewrite app_length, Hlen. unfold nbytes. lia.
Qed.

Lemma get_uint_bytes_E e w v tl :
  w mod 8 = 0 -> v < 2 ^ w -> get_uint e w (bytes_E e (nbytes w) v ++ tl) = Ok (v, tl).
Proof.
  intros Hal Hv. destruct (bytes_E_span e w v tl Hal Hv) as (Hlen & Hval & Htl).
  unfold get_uint. fold (nbytes w). now rewrite Hlen, Hval, Htl.
Qed.

Lemma firstn_nbytes e (sp : list byte) bits :
  bits mod 8 = 0 -> (len sp <? bits / 8) = false ->
  List.length (firstn (nbytes bits) sp) = nbytes bits /\ of_E e (firstn (nbytes bits) sp) < 2 ^ bits.
Proof.
  intros Hal Hlen.
  assert (Hfl : List.length (firstn (nbytes bits) sp) = nbytes bits).
  { apply firstn_length_le. unfold nbytes, len in *. lia. }
  split; [exact Hfl|]. rewrite <- (pow256_nbytes _ Hal). rewrite <- Hfl at 2. apply of_E_lt.
Qed.

(** [Panic GenAssert] is pdlc refusing the declaration: no code is emitted, nothing is claimed *)
Definition gooddec {A} (r : dres A) (P : A -> Prop) : Prop :=
  match r with
  | Ok a => P a
  | Panic GenAssert => True
  | _ => False
  end.

Lemma gooddec_bind {A B} (x : dres A) (f : A -> dres B) (P : A -> Prop) (Q : B -> Prop) :
  gooddec x P -> (forall a, P a -> gooddec (f a) Q) -> gooddec (bind x f) Q.
Proof.
  unfold gooddec, bind. destruct x as [a| |k|]; try tauto.
  intros Ha Hf. exact (Hf a Ha).
Qed.

Lemma gooddec_impl {A} (r : dres A) (P Q : A -> Prop) :
  gooddec r P -> (forall a, P a -> Q a) -> gooddec r Q.
Proof. unfold gooddec. destruct r as [a| |k|]; try tauto. intros H HPQ. exact (HPQ a H). Qed.

(** A chunk whose fields follow one another from bit [sh] is given by its fields and
    their widths; an item also carries the value of the field. *)
Definition item := (field * N * N)%type.       (* field, value, width *)

Definition item_field (it : item) : field := fst (fst it).
Definition item_value (it : item) : N := snd (fst it).

Definition layout (its : list item) : list (field * N) := map (fun it : item => (item_field it, snd it)) its.
Definition group_of (its : list item) : list (N * N) := map (fun it : item => (item_value it, snd it)) its.
Definition gsum (its : list item) : N := group_sum (group_of its) 0.

Fixpoint chunk_at (fws : list (field * N)) (sh : N) : list (N * field) :=
  match fws with
  | [] => []
  | (f, w) :: r => (sh, f) :: chunk_at r (sh + w)
  end.

Fixpoint layout_bits (fws : list (field * N)) : N :=
  match fws with
  | [] => 0
  | (_, w) :: r => w + layout_bits r
  end.

Lemma layout_bits_app a b : layout_bits (a ++ b) = layout_bits a + layout_bits b.
Proof. induction a as [|[f w] a IH]; cbn [app layout_bits]; [reflexivity|]. rewrite IH. lia. Qed.

Lemma chunk_at_app a b sh : chunk_at (a ++ b) sh = (chunk_at a sh ++ chunk_at b (sh + layout_bits a))%list.
Proof.
  revert sh. induction a as [|[f w] a IH]; intros sh; cbn [app chunk_at layout_bits].
  - now rewrite N.add_0_r.
  - rewrite IH, N.add_assoc. reflexivity.
Qed.

Lemma layout_app a b : layout (a ++ b) = (layout a ++ layout b)%list.
Proof. apply map_app. Qed.

Lemma group_of_app a b : group_of (a ++ b) = (group_of a ++ group_of b)%list.
Proof. apply map_app. Qed.

Lemma group_of_bits its : group_bits (group_of its) = layout_bits (layout its).
Proof.
  induction its as [|[[f v] w] its IH]; [reflexivity|].
  cbn [group_of layout map group_bits layout_bits snd]. f_equal. exact IH.
Qed.

Lemma gsum_snoc its f v w : gsum (its ++ [(f, v, w)]) = gsum its + v * 2 ^ layout_bits (layout its).
Proof.
  unfold gsum. rewrite group_of_app, group_sum_app, group_of_bits.
  cbn [group_of map item_value fst snd group_sum].
  now rewrite N.add_0_l, N.add_0_r.
Qed.

(** the items of a chunk value; reserved bits read as the 0 the reference writes *)
Definition read_val (cv sh : N) (f : field) (w : N) : N :=
  match f_desc f with Reserved _ => 0 | _ => extract sh w cv end.

Fixpoint read_items (cv : N) (fws : list (field * N)) (sh : N) : list item :=
  match fws with
  | [] => []
  | (f, w) :: r => (f, read_val cv sh f w, w) :: read_items cv r (sh + w)
  end.

Lemma layout_read_items cv fws : forall sh, layout (read_items cv fws sh) = fws.
Proof.
  induction fws as [|[f w] r IH]; intros sh; cbn [read_items layout map item_field fst snd]; [reflexivity|].
  f_equal. apply IH.
Qed.

Lemma read_items_app cv a b sh :
  read_items cv (a ++ b) sh = (read_items cv a sh ++ read_items cv b (sh + layout_bits a))%list.
Proof.
  revert sh. induction a as [|[f w] a IH]; intros sh; cbn [app read_items layout_bits].
  - now rewrite N.add_0_r.
  - rewrite IH, N.add_assoc. reflexivity.
Qed.

Definition item_vals (its : list item) : list (string * value) :=
  flat_map (fun it => field_val (item_field it) (item_value it)) its.

Definition push_locals (its : list item) (L : list (string * N)) : list (string * N) :=
  fold_left (fun l it => (field_local (item_field it) (item_value it) ++ l)%list) its L.

Lemma item_vals_app a b : item_vals (a ++ b) = (item_vals a ++ item_vals b)%list.
Proof. apply flat_map_app. Qed.

Lemma push_locals_snoc its it L :
  push_locals (its ++ [it]) L = (field_local (item_field it) (item_value it) ++ push_locals its L)%list.
Proof. unfold push_locals. now rewrite fold_left_app. Qed.

Definition put_items (st : dstate) (its : list item) : dstate :=
  mkDst (st_span st) (push_locals its (st_locals st)) (st_vals st ++ item_vals its) (st_payload st).

Section Chunk.
  Variable fl : file.
  Variable sch : schema.
  Variable d : decl.

  Fixpoint bind_items (st : dstate) (its : list item) : dres dstate :=
    match its with
    | [] => Ok st
    | it :: r => let* st' := bind_field fl st (item_field it) (item_value it) in bind_items st' r
    end.

  Lemma bind_items_ok : forall its st st',
    bind_items st its = Ok st' <->
    Forall (fun it => admits fl (item_field it) (item_value it)) its /\ st' = put_items st its.
  Proof.
    induction its as [|it its IH]; intros st st'; cbn [bind_items].
    - destruct st as [sp L vals pl]. unfold put_items. cbn. rewrite app_nil_r.
      split; [intros H; injection H as <-; split; [constructor | reflexivity] | intros [_ ->]; reflexivity].
    - assert (Hput : put_items (put_field st (item_field it) (item_value it)) its = put_items st (it :: its)).
      { unfold put_items, put_field, item_vals. cbn [st_span st_locals st_vals st_payload flat_map].
        now rewrite <- app_assoc. }
      split.
      + intros H. apply bind_ok_inv in H. destruct H as (st1 & H1 & H2).
        apply bind_field_ok in H1. destruct H1 as [Ha ->]. apply IH in H2. destruct H2 as [Hall ->].
        split; [constructor; assumption | apply Hput].
      + intros [Hall ->]. inversion Hall as [|? ? Ha Hall']; subst.
        rewrite (proj2 (bind_field_ok fl st (item_field it) (item_value it) _) (conj Ha eq_refl)). cbn [bind].
        apply IH. split; [exact Hall' | symmetry; apply Hput].
  Qed.

  Definition fw_ok (fw : field * N) : Prop := field_size sch d (fst fw) = Some (SStatic (snd fw)).

  Lemma chunk_field_reads single cv ctw size T sh f w st :
    fw_ok (f, w) -> cv < 2 ^ T -> sh + w <= T -> integer_width T = Some ctw ->
    (single = true -> sh = 0 /\ w = T) ->
    chunk_field fl sch single cv ctw size st d (sh, f) = bind_field fl st f (read_val cv sh f w).
  Proof.
    intros Hfw Hcv Hsw Hctw Hsingle.
    destruct (integer_width_below w T ctw ltac:(lia) Hctw) as (vtw & Hvtw & Hle).
    rewrite (chunk_field_eq fl sch single cv ctw size st d sh f w vtw Hfw Hvtw).
    rewrite (chunk_value_extract cv sh w T vtw ctw single Hcv Hsw Hle
               (proj1 (integer_width_bounds _ _ Hctw)) Hsingle).
    unfold read_val, bind_field. destruct (f_desc f); reflexivity.
  Qed.

  Lemma chunk_fields_reads cv ctw size T : forall fws sh st,
    Forall fw_ok fws -> cv < 2 ^ T -> sh + layout_bits fws <= T -> integer_width T = Some ctw ->
    chunk_fields fl sch false cv ctw size st d (chunk_at fws sh) = bind_items st (read_items cv fws sh).
  Proof.
    induction fws as [|[f w] fws IH]; intros sh st Hok Hcv Hsb Hctw; [reflexivity|].
    inversion Hok as [|? ? Hfw Hok']; subst. cbn [layout_bits] in Hsb.
    cbn [chunk_at chunk_fields read_items bind_items item_field item_value fst snd].
    rewrite (chunk_field_reads false cv ctw size T sh f w st Hfw Hcv ltac:(lia) Hctw) by discriminate.
    destruct (bind_field fl st f _); cbn [bind]; try reflexivity.
    apply IH; [exact Hok' | exact Hcv | lia | exact Hctw].
  Qed.

  (** A completed chunk: its octets are read in the file's byte order and cut into
      items, which are bound in turn.  (A lone reserved field is skipped unread: binding
      it does nothing.) *)
  Lemma dec_chunk_reads fws st :
    Forall fw_ok fws -> layout_bits fws mod 8 = 0 ->
    dec_chunk fl sch d st (chunk_at fws 0) (layout_bits fws) =
    if len (st_span st) <? layout_bits fws / 8 then Err LengthError
    else match integer_width (layout_bits fws) with
         | None => Panic GenAssert
         | Some _ =>
             bind_items (set_span st (skipn (nbytes (layout_bits fws)) (st_span st)))
                        (read_items (of_E (f_endian fl) (firstn (nbytes (layout_bits fws)) (st_span st))) fws 0)
         end.
  Proof.
    intros Hok Hal. unfold dec_chunk, check_size.
    destruct (len (st_span st) <? layout_bits fws / 8) eqn:El; [reflexivity|]. cbn [bind].
    destruct (integer_width (layout_bits fws)) as [ctw|] eqn:Ectw; [|reflexivity].
    unfold advance, get_uint, Decode.E. rewrite El. cbn [bind]. fold (nbytes (layout_bits fws)).
    pose proof (proj2 (firstn_nbytes (f_endian fl) _ _ Hal El)) as Hcv.
    destruct fws as [|[f w] [|[f2 w2] fws]]; [reflexivity| |].
    - cbn [layout_bits] in *. rewrite N.add_0_r in *.
      cbn [chunk_at read_items bind_items chunk_fields is_single_reserved item_field item_value fst snd].
      rewrite (chunk_field_reads true _ ctw (w / 8) w 0 f w _ (Forall_inv Hok) Hcv
                 (N.eq_le_incl _ _ (N.add_0_l w)) Ectw (fun _ => conj eq_refl eq_refl)).
      destruct (f_desc f) eqn:Ed; try reflexivity.
      unfold bind_field. rewrite Ed. reflexivity.
    - cbn [chunk_at is_single_reserved].
      apply (chunk_fields_reads _ ctw _ (layout_bits ((f, w) :: (f2, w2) :: fws)) _ 0 _ Hok Hcv);
        [rewrite N.add_0_l; apply N.le_refl | exact Ectw].
  Qed.

  Definition item_ok (it : item) : Prop :=
    let '(f, v, w) := it in
    v < 2 ^ w /\ fw_ok (f, w) /\ admits fl f v
    /\ match f_desc f with Reserved _ => v = 0 | _ => True end.

  Lemma items_group_ok its : Forall item_ok its -> group_ok (group_of its).
  Proof.
    unfold group_ok, group_of. intros H. rewrite Forall_map. eapply Forall_impl; [|exact H].
    intros [[f v] w] [Hv _]. exact Hv.
  Qed.

  Lemma items_fw_ok its : Forall item_ok its -> Forall fw_ok (layout its).
  Proof.
    unfold layout. intros H. rewrite Forall_map. eapply Forall_impl; [|exact H].
    intros [[f v] w] (_ & Hfw & _). exact Hfw.
  Qed.

  Lemma items_admitted its :
    Forall item_ok its -> Forall (fun it => admits fl (item_field it) (item_value it)) its.
  Proof. apply Forall_impl. intros [[f v] w] (_ & _ & Ha & _). exact Ha. Qed.

  Lemma read_items_gsum : forall post pre,
    Forall item_ok pre -> Forall item_ok post ->
    read_items (gsum (pre ++ post)) (layout post) (layout_bits (layout pre)) = post.
  Proof.
    induction post as [|[[f v] w] post IH]; intros pre Hpre Hpost; [reflexivity|].
    inversion Hpost as [|? ? Hit Hpost']; subst.
    cbn [layout map read_items item_field fst snd]. fold (layout post). f_equal.
    - f_equal. f_equal. destruct Hit as (Hv & _ & _ & Hr). unfold read_val.
      assert (Hx : extract (layout_bits (layout pre)) w (gsum (pre ++ (f, v, w) :: post)) = v).
      { unfold gsum. rewrite group_of_app, <- group_of_bits.
        apply (extract_group_sum _ v w (group_of post)); [|exact Hv|]; apply items_group_ok; assumption. }
      destruct (f_desc f); try exact Hx. symmetry. exact Hr.
    - replace (layout_bits (layout pre) + w) with (layout_bits (layout (pre ++ [(f, v, w)])))
        by (rewrite layout_app, layout_bits_app; cbn; lia).
      change ((f, v, w) :: post) with ([(f, v, w)] ++ post)%list. rewrite app_assoc.
      apply IH; [|exact Hpost']. apply Forall_app.
      split; [exact Hpre | constructor; [exact Hit | constructor]].
  Qed.

  Lemma dec_chunk_reference its st tl :
    Forall item_ok its -> layout_bits (layout its) mod 8 = 0 ->
    st_span st = (bytes_E (f_endian fl) (nbytes (layout_bits (layout its))) (gsum its) ++ tl)%list ->
    gooddec (dec_chunk fl sch d st (chunk_at (layout its) 0) (layout_bits (layout its)))
            (fun st' => st' = put_items (set_span st tl) its).
  Proof.
    intros Hits Hal Hspan.
    rewrite dec_chunk_reads; [|apply items_fw_ok; exact Hits|exact Hal].
    assert (Hlt : gsum its < 2 ^ layout_bits (layout its))
      by (rewrite <- group_of_bits; exact (group_sum_lt _ (items_group_ok _ Hits))).
    destruct (bytes_E_span (f_endian fl) _ _ tl Hal Hlt) as (Hlen & Hval & Htl).
    rewrite Hspan, Hlen, Hval, Htl.
    destruct (integer_width (layout_bits (layout its))); [|exact I].
    pose proof (read_items_gsum its [] (Forall_nil _) Hits) as Hri. cbn [app layout map layout_bits] in Hri.
    rewrite Hri, (proj2 (bind_items_ok its _ _) (conj (items_admitted its Hits) eq_refl)). reflexivity.
  Qed.

  (** pending items never fill whole octets: a chunk that does is read at once *)
  Definition pending_items (its : list item) : Prop := its = [] \/ layout_bits (layout its) mod 8 <> 0.

  Section Step.
    Variable oc : bool.
    Variable rec : string -> list byte -> dres (value * list byte).
    Variable lf : nat.
    Variable refrec : string -> value -> option (list seg).
    Variable all_fields : list field.
    Variable obj : list (string * value).
    Variable payload : list seg.

    Notation RF := (ref_enc_fields fl refrec d all_fields [] obj payload).
    (** the decoder with the items [its] pending *)
    Notation DF fs st its :=
      (dec_fields oc fl sch rec lf d fs st (chunk_at (layout its) 0) (layout_bits (layout its))).

    Lemma dec_fields_snoc pre f w rest st :
      f_cond f = None -> is_bitfield fl f = true -> fw_ok (f, w) ->
      dec_fields oc fl sch rec lf d (f :: rest) st (chunk_at pre 0) (layout_bits pre) =
      if layout_bits (pre ++ [(f, w)]) mod 8 =? 0
      then let* st' := dec_chunk fl sch d st (chunk_at (pre ++ [(f, w)]) 0) (layout_bits (pre ++ [(f, w)])) in
           dec_fields oc fl sch rec lf d rest st' [] 0
      else dec_fields oc fl sch rec lf d rest st (chunk_at (pre ++ [(f, w)]) 0)
                      (layout_bits (pre ++ [(f, w)])).
    Proof.
      intros Hc Hb Hfw. rewrite (dec_fields_bitfield oc fl sch rec lf d f rest st _ _ w Hc Hb Hfw).
      rewrite chunk_at_app, layout_bits_app. cbn [chunk_at layout_bits]. now rewrite N.add_0_l, N.add_0_r.
    Qed.

    (** the reference goes on over [rest] with the items [its] summed up: when they fill
        whole octets their group is written out first *)
    Definition ref_after (rest : list field) (its : list item) (ss : list seg) : Prop :=
      if layout_bits (layout its) mod 8 =? 0
      then exists b, RF rest 0 0 = Some b /\ ss = int_seg (nbytes (layout_bits (layout its))) (gsum its) :: b
      else RF rest (gsum its) (layout_bits (layout its)) = Some ss.

    Lemma ref_enc_fields_item f rest its ss :
      f_cond f = None -> is_bitfield fl f = true ->
      RF (f :: rest) (gsum its) (layout_bits (layout its)) = Some ss ->
      exists v w,
        ref_bitfield fl refrec d all_fields [] obj payload f = Some (v, w) /\ v < 2 ^ w /\
        ref_after rest (its ++ [(f, v, w)]) ss.
    Proof.
      intros Hc Hb Href. rewrite ref_enc_fields_cons, Hc, Hb in Href.
      destruct (ref_bitfield fl refrec d all_fields [] obj payload f) as [[v w]|]; [|discriminate].
      destruct (v <? 2 ^ w) eqn:Ev; [|discriminate]. apply N.ltb_lt in Ev.
      exists v, w. split; [reflexivity|]. split; [exact Ev|]. unfold ref_after.
      rewrite gsum_snoc, layout_app, layout_bits_app. cbn [layout map layout_bits item_field fst snd].
      rewrite N.add_0_r.
      destruct ((layout_bits (layout its) + w) mod 8 =? 0); [|exact Href].
      destruct (RF rest 0 0) as [b|]; [|discriminate].
      exists b. split; [reflexivity|]. now injection Href as <-.
    Qed.

    Lemma ref_enc_fields_nil its ss :
      pending_items its -> RF [] (gsum its) (layout_bits (layout its)) = Some ss -> its = [] /\ ss = [].
    Proof.
      intros Hpend Href. cbn [ref_enc_fields] in Href.
      destruct (layout_bits (layout its) =? 0) eqn:E0; [|discriminate]. apply N.eqb_eq in E0.
      split; [|now injection Href]. destruct Hpend as [E | Hne]; [exact E|]. now rewrite E0 in Hne.
    Qed.

    (** One reference bit-field joins the pending items: the decoder goes on over [rest]
        from a state of the same kind, in which -- once the pending items are bound --
        exactly [(f, v, w)] has been added.  (A chunk that fills whole octets has been
        consumed and bound, and [its1] is empty; otherwise nothing has moved.)  The span
        does not grow: the arrays induction carries the 2^64 bound along. *)
    Lemma dec_fields_reference_item f v w rest its st tl ss :
      f_cond f = None -> is_bitfield fl f = true ->
      Forall item_ok its -> item_ok (f, v, w) ->
      ref_after rest (its ++ [(f, v, w)]) ss ->
      st_span st = (render (f_endian fl) ss ++ tl)%list ->
      exists st1 its1 ss1,
        (DF (f :: rest) st its = Panic GenAssert \/ DF (f :: rest) st its = DF rest st1 its1) /\
        RF rest (gsum its1) (layout_bits (layout its1)) = Some ss1 /\
        st_span st1 = (render (f_endian fl) ss1 ++ tl)%list /\
        Forall item_ok its1 /\ pending_items its1 /\
        put_items st1 its1 = put_items (set_span st (st_span st1)) (its ++ [(f, v, w)]) /\
        len (st_span st1) <= len (st_span st).
    Proof.
      intros Hc Hb Hits Hit Hnext Hspan.
      rewrite (dec_fields_snoc (layout its) f w rest st Hc Hb (proj1 (proj2 Hit))).
      change (layout its ++ [(f, w)])%list with (layout its ++ layout [(f, v, w)])%list.
      rewrite <- layout_app.
      assert (Hits' : Forall item_ok (its ++ [(f, v, w)])).
      { apply Forall_app. split; [exact Hits | constructor; [exact Hit | constructor]]. }
      unfold ref_after in Hnext. set (its' := (its ++ [(f, v, w)])%list) in *.
      destruct (layout_bits (layout its') mod 8 =? 0) eqn:Em.
      - apply N.eqb_eq in Em. destruct Hnext as (b & Eb & ->).
        rewrite render_cons, render_int_seg, <- app_assoc in Hspan.
        exists (put_items (set_span st (render (f_endian fl) b ++ tl)) its'), [], b.
        split.
        { pose proof (dec_chunk_reference its' st _ Hits' Em Hspan) as Hch.
          destruct (dec_chunk fl sch d st _ _) as [st1| |[]|]; try contradiction;
            [right; cbn in Hch |- *; now rewrite Hch | left; reflexivity]. }
        split; [exact Eb|]. split; [reflexivity|]. split; [constructor|]. split; [left; reflexivity|].
        split; [unfold put_items; cbn; now rewrite app_nil_r|].
        cbn [st_span put_items set_span]. rewrite Hspan, !len_app. lia.
      - apply N.eqb_neq in Em. exists st, its', ss.
        split; [right; reflexivity|]. split; [exact Hnext|]. split; [exact Hspan|]. split; [exact Hits'|].
        split; [right; exact Em|]. split; [now destruct st | apply N.le_refl].
    Qed.
  End Step.
End Chunk.


Section RoundTrip.
  Variable oc : bool.
  Variable fl : file.
  Variable sch : schema.
  Variable rec : string -> list byte -> dres (value * list byte).
  Variable lf : nat.
  Variable d : decl.
  Variable refrec : string -> value -> option (list seg).
  Variable all_fields : list field.
  Variable obj : list (string * value).
  Variable payload : list seg.

  Hypothesis Hsch : schema_knows_enums fl sch.

  (** every integer the reference reads as a variant of an enum of the file is accepted by
      the emitted [TryFrom] (C15; [RoundTripReal.accepted_enums_exact] has it from the analyzer's check) *)
  Definition enums_exact : Prop :=
    forall tid i tags w x e,
      lookup_decl fl tid = Some (DEnum i tags w) ->
      spec_enum_of_N tags w x = Some e ->
      exists e', rust_enum_try_from tags w x = Some (TOk e').
  Hypothesis Henum : enums_exact.

  (** what the decoder records for a field list of the fragment, read from the value *)
  Definition vals_of (fs : list field) : list (string * value) :=
    flat_map (fun f =>
                match f_desc f with
                | Scalar id _ | Typedef id _ =>
                    match assoc id obj with Some (VNum n) => [(id, VNum n)] | _ => [] end
                | _ => []
                end) fs.

  Lemma vals_of_cons f rest : vals_of (f :: rest) = (vals_of [f] ++ vals_of rest)%list.
  Proof. unfold vals_of. cbn [flat_map]. now rewrite app_nil_r. Qed.

  Lemma ref_bitfield_item f v w :
    bf_field fl f = true ->
    ref_bitfield fl refrec d all_fields [] obj payload f = Some (v, w) ->
    v < 2 ^ w ->
    item_ok fl sch d (f, v, w) /\ item_vals [(f, v, w)] = vals_of [f].
  Proof.
    intros Hbf Hrb Hv.
    pose proof (ref_bitfield_size fl sch refrec d all_fields [] obj payload f v w Hsch (bf_cond fl f Hbf) Hrb) as Hfs.
    enough (admits fl f v /\ match f_desc f with Reserved _ => v = 0 | _ => True end
            /\ item_vals [(f, v, w)] = vals_of [f]) as (Ha & Hr & Hvals)
      by (split; [repeat split; assumption | exact Hvals]).
    unfold admits, item_vals, field_val, vals_of. cbn [flat_map item_field item_value fst snd].
    unfold bf_field in Hbf. unfold ref_bitfield in Hrb.
    destruct (f_cond f); [discriminate|].
    destruct (f_desc f) eqn:Ed; try discriminate.
    - (* FixedScalar *) inversion Hrb; subst. repeat split.
    - (* FixedEnum *)
      destruct (enum_tags fl enum_id) as [[tags ew]|] eqn:Eet; [|discriminate].
      destruct (enum_tag_value tags tag_id) as [tv|] eqn:Etv; [|discriminate].
      inversion Hrb; subst.
      split; [exists tags, w; split; [reflexivity | exact Etv] | split; [exact I | reflexivity]].
    - (* Reserved *) inversion Hrb; subst. repeat split.
    - (* Scalar *)
      cbn [find_constraint find] in Hrb.
      destruct (assoc id obj) as [[n| | |]|] eqn:Ea; try discriminate.
      inversion Hrb; subst. repeat split.
    - (* Typedef *)
      unfold enum_tags in Hrb. destruct (lookup_decl fl type_id) as [[]|] eqn:El; try discriminate.
      cbn [find_constraint find] in Hrb.
      destruct (assoc id obj) as [[n| | |]|] eqn:Ea; try discriminate.
      destruct (spec_enum_of_N tags width n) as [e|] eqn:Esp; [|discriminate].
      inversion Hrb; subst. split; [|split; [exact I | reflexivity]].
      unfold enum_check. rewrite El.
      destruct (Henum type_id _ tags w v e El Esp) as [e' He']. rewrite He'. reflexivity.
  Qed.

  Theorem dec_fields_reference : forall fs its st tl ss,
    forallb (bf_field fl) fs = true ->
    Forall (item_ok fl sch d) its -> pending_items its ->
    ref_enc_fields fl refrec d all_fields [] obj payload fs (gsum its) (layout_bits (layout its)) = Some ss ->
    st_span st = (render (f_endian fl) ss ++ tl)%list ->
    gooddec (dec_fields oc fl sch rec lf d fs st (chunk_at (layout its) 0) (layout_bits (layout its)))
            (fun st' => st_span st' = tl
                        /\ st_vals st' = (st_vals st ++ item_vals its ++ vals_of fs)%list
                        /\ st_payload st' = st_payload st).
  Proof.
    induction fs as [|f rest IH]; intros its st tl ss Hbf Hits Hpend Href Hspan.
    - destruct (ref_enc_fields_nil fl d refrec all_fields obj payload its ss Hpend Href) as [-> ->].
      cbn. repeat split; [exact Hspan | now rewrite app_nil_r].
    - cbn [forallb] in Hbf. apply andb_prop in Hbf. destruct Hbf as [Hf Hrest].
      pose proof (bf_is_bitfield fl f Hf) as Hbit.
      pose proof (bf_cond fl f Hf) as Hc.
      destruct (ref_enc_fields_item fl d refrec all_fields obj payload f rest its ss Hc Hbit Href)
        as (v & w & Erb & Ev & Hnext).
      destruct (ref_bitfield_item f v w Hf Erb Ev) as [Hit Hvals].
      destruct (dec_fields_reference_item fl sch d oc rec lf refrec all_fields obj payload
                  f v w rest its st tl ss Hc Hbit Hits Hit Hnext Hspan)
        as (st1 & its1 & ss1 & Hgo & Href1 & Hspan1 & Hits1 & Hpend1 & Hput & _).
      destruct Hgo as [-> | ->]; [exact I|].
      eapply gooddec_impl; [exact (IH its1 st1 tl ss1 Hrest Hits1 Hpend1 Href1 Hspan1)|].
      intros st2 (H1 & H2 & H3).
      pose proof (f_equal st_vals Hput) as Hv. pose proof (f_equal st_payload Hput) as Hp.
      cbn [put_items st_vals st_payload set_span] in Hv, Hp.
      rewrite app_assoc, Hv, item_vals_app, Hvals, <- !app_assoc in H2.
      rewrite vals_of_cons. repeat split; [exact H1 | exact H2 | now rewrite H3].
  Qed.
End RoundTrip.

Lemma fragment_no_payload fl d :
  forallb (bf_field fl) (decl_fields d) = true -> decl_payload d = None.
Proof.
  intros Hbf. apply find_none_iff. intros f Hin.
  exact (bf_not_payload fl f (proj1 (forallb_forall _ _) Hbf f Hin)).
Qed.

Theorem rust_dec_decl_reference fuel oc fl sch refrec d all_fields o payload ss tl :
  schema_knows_enums fl sch -> enums_exact fl ->
  get_parent fl d = None ->
  forallb (bf_field fl) (decl_fields d) = true ->
  ref_enc_fields fl refrec d all_fields [] o payload (decl_fields d) 0 0 = Some ss ->
  gooddec (rust_dec_decl (S fuel) oc fl sch d (render (f_endian fl) ss ++ tl))
          (fun r => r = (VObj (vals_of o (decl_fields d)), tl)).
Proof.
  intros Hsch Hen Hpar Hbf Href.
  rewrite (rust_dec_decl_root _ _ _ _ _ _ Hpar (fragment_no_payload fl d Hbf)).
  eapply gooddec_bind.
  - exact (dec_fields_reference oc fl sch _ fuel d refrec all_fields o payload Hsch Hen (decl_fields d) []
             (init_state _) tl ss Hbf (Forall_nil _) (or_introl eq_refl) Href eq_refl).
  - intros st (Hsp & Hv & _). cbn [gooddec]. rewrite Hsp, Hv. reflexivity.
Qed.

(** a value of the generated Rust type: exactly the data fields, in declaration order *)
Definition canonical_obj (o : list (string * value)) (fs : list field) : Prop := vals_of o fs = o.

Corollary rust_dec_decl_reference_canonical fuel oc fl sch refrec d all_fields o payload ss tl :
  schema_knows_enums fl sch -> enums_exact fl ->
  get_parent fl d = None ->
  forallb (bf_field fl) (decl_fields d) = true ->
  canonical_obj o (decl_fields d) ->
  ref_enc_fields fl refrec d all_fields [] o payload (decl_fields d) 0 0 = Some ss ->
  gooddec (rust_dec_decl (S fuel) oc fl sch d (render (f_endian fl) ss ++ tl)) (fun r => r = (VObj o, tl)).
Proof.
  intros Hsch Hen Hpar Hbf Hcan Href.
  pose proof (rust_dec_decl_reference fuel oc fl sch refrec d all_fields o payload ss tl
                Hsch Hen Hpar Hbf Href) as Hdec.
  unfold canonical_obj in Hcan. now rewrite Hcan in Hdec.
Qed.

Lemma rust_roundtrip_root fuel fuel' oc fl sch id d o bs tl :
  lookup_decl fl id = Some d -> root_decl d ->
  ref_encode (S fuel) fl id (VObj o) = Some bs ->
  good (rust_encode (S fuel) fl sch id (VObj o)) bs ->
  (forall refrec all_fields payload ss,
      ref_enc_fields fl refrec d all_fields [] o payload (decl_fields d) 0 0 = Some ss ->
      bs = render (f_endian fl) ss ->
      gooddec (rust_dec_decl (S fuel') oc fl sch d (bs ++ tl)) (fun r => r = (VObj o, tl))) ->
  match rust_encode (S fuel) fl sch id (VObj o) with
  | Ok bs' =>
      bs' = bs /\
      gooddec (rust_decode (S fuel') oc fl sch id (bs' ++ tl)) (fun r => r = (VObj o, tl))
  | Panic GenAssert => True
  | _ => False
  end.
Proof.
  intros Hl Hd Href Henc Hdec. unfold good in Henc.
  destruct (rust_encode (S fuel) fl sch id (VObj o)) as [bs'| |k|]; try exact Henc.
  subst bs'. split; [reflexivity|].
  destruct (ref_encode_root fuel fl id d (VObj o) bs Hl Hd Href) as (o' & pl & ss & [= <-] & _ & Ef & E).
  unfold rust_decode. rewrite Hl. destruct Hd as (did & fs & [-> | ->]); exact (Hdec _ _ _ ss Ef E).
Qed.

(** ENCODE THEN DECODE IS THE IDENTITY on root declarations of the bit-field fragment:
    for every value the reference can encode (scalars within their widths, enum values
    that the enum declares), any bytes [tl] that follow, both byte orders and overflow
    modes: the emitted encoder produces the reference bytes [bs], and the emitted decoder
    run on [bs ++ tl] returns the value and [tl] -- unless the generator refuses the
    declaration (a bit-field group wider than 64 bits). *)
Theorem rust_roundtrip_fragment fuel fuel' oc fl sch id d o bs tl :
  schema_knows_enums fl sch -> enums_exact fl ->
  lookup_decl fl id = Some d ->
  root_of_fragment fl d ->
  canonical_obj o (decl_fields d) ->
  ref_encode (S fuel) fl id (VObj o) = Some bs ->
  match rust_encode (S fuel) fl sch id (VObj o) with
  | Ok bs' =>
      bs' = bs /\
      gooddec (rust_decode (S fuel') oc fl sch id (bs' ++ tl)) (fun r => r = (VObj o, tl))
  | Panic GenAssert => True
  | _ => False
  end.
Proof.
  intros Hsch Hen Hl [Hd Hbf] Hcan Href.
  apply (rust_roundtrip_root fuel fuel' oc fl sch id d o bs tl Hl Hd Href).
  - exact (rust_encode_fragment fuel fl sch id d (VObj o) bs Hsch Hl (conj Hd Hbf) Href).
  - intros refrec all_fields payload ss Ef ->.
    exact (rust_dec_decl_reference_canonical fuel' oc fl sch refrec d all_fields o payload ss tl Hsch Hen
             (root_decl_parent fl d Hd) Hbf Hcan Ef).
Qed.
