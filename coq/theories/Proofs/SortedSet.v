(** The order in which generate_specialize_impl emits its match arms and discriminant
    fields is that of a BTreeMap / BTreeSet: it depends on the SET of identifiers only,
    not on the order in which a HashMap iteration or the declaration list delivered
    them.  [sort_dedup] is the model of `collect::<BTreeSet<String>>()`. *)
From Coq Require Import NArith List String Ascii Bool Lia Permutation.
From PDL Require Import Rust.Inherit.
Import ListNotations.

Lemma N_of_ascii_inj a b : N_of_ascii a = N_of_ascii b -> a = b.
Proof. intros H. rewrite <- (ascii_N_embedding a), <- (ascii_N_embedding b). now rewrite H. Qed.

(** [str_ltb] is the lexicographic extension of [<] on character codes *)
Lemma str_ltb_cons x a y b :
  str_ltb (String x a) (String y b) = true <->
  (N_of_ascii x < N_of_ascii y \/ N_of_ascii x = N_of_ascii y /\ str_ltb a b = true)%N.
Proof.
  cbn [str_ltb]. destruct (N.ltb_spec (N_of_ascii x) (N_of_ascii y)); [tauto|].
  destruct (N.ltb_spec (N_of_ascii y) (N_of_ascii x)); [split; [discriminate | lia]|].
  split; [right; split; [lia | assumption] | intros [?|[_ ?]]; [lia | assumption]].
Qed.

Lemma str_ltb_trichotomy a : forall b, a = b \/ str_ltb a b = true \/ str_ltb b a = true.
Proof.
  induction a as [|x a IH]; intros [|y b]; [auto | cbn; auto | cbn; auto |].
  rewrite !str_ltb_cons.
  destruct (N.lt_trichotomy (N_of_ascii x) (N_of_ascii y)) as [H|[H|H]]; [auto | | auto].
  destruct (IH b) as [->|[Hab|Hba]]; [apply N_of_ascii_inj in H; subst; auto | auto | auto].
Qed.

Lemma str_ltb_asym a : forall b, str_ltb a b = true -> str_ltb b a = false.
Proof.
  induction a as [|x a IH]; intros [|y b]; try (cbn [str_ltb]; congruence).
  rewrite str_ltb_cons. intros Hab. apply not_true_is_false. rewrite str_ltb_cons. intros Hba.
  destruct Hab as [H1|[H1 Hab]], Hba as [H2|[H2 Hba]]; try lia.
  rewrite (IH _ Hab) in Hba. discriminate.
Qed.

Lemma str_ltb_irrefl a : str_ltb a a = false.
Proof. apply not_true_is_false. intros E. pose proof (str_ltb_asym _ _ E). congruence. Qed.

Lemma str_ltb_trans a : forall b c, str_ltb a b = true -> str_ltb b c = true -> str_ltb a c = true.
Proof.
  induction a as [|x a IH]; intros [|y b] [|z c]; try (cbn [str_ltb]; congruence).
  rewrite !str_ltb_cons. intros [H1|[H1 Hab]] [H2|[H2 Hbc]]; [left; lia..|].
  right. split; [congruence | eauto].
Qed.

Inductive ssorted : list string -> Prop :=
| ss_nil : ssorted []
| ss_one x : ssorted [x]
| ss_cons x y l : str_ltb x y = true -> ssorted (y :: l) -> ssorted (x :: y :: l).

Lemma ssorted_tail x l : ssorted (x :: l) -> ssorted l.
Proof. intros H. inversion H; subst; [constructor | assumption]. Qed.

Lemma ssorted_head_lt x l : ssorted (x :: l) -> forall y, In y l -> str_ltb x y = true.
Proof.
  revert x. induction l as [|z l IH]; intros x H y Hy; [destruct Hy|].
  inversion H; subst. destruct Hy as [<-|Hy]; [assumption|].
  eapply str_ltb_trans; [eassumption|]. eapply IH; eassumption.
Qed.

Lemma ssorted_cons x l : (forall y, In y l -> str_ltb x y = true) -> ssorted l -> ssorted (x :: l).
Proof.
  destruct l as [|z l]; intros H Hs; constructor; [apply H; left; reflexivity | exact Hs].
Qed.

Lemma insert_str_in s l x : In x (insert_str s l) <-> In x (s :: l).
Proof.
  induction l as [|y l IH]; cbn [insert_str]; [reflexivity|].
  destruct (String.eqb_spec s y) as [->|_]; [cbn [In]; tauto|].
  destruct (str_ltb s y); [reflexivity|]. cbn [In] in *. rewrite IH. tauto.
Qed.

Lemma insert_str_sorted s l : ssorted l -> ssorted (insert_str s l).
Proof.
  induction l as [|y l IH]; intros Hs; cbn [insert_str]; [constructor|].
  destruct (String.eqb_spec s y) as [->|Hne]; [exact Hs|].
  destruct (str_ltb s y) eqn:Elt; [constructor; assumption|].
  apply ssorted_cons; [|exact (IH (ssorted_tail _ _ Hs))].
  intros z Hz. apply insert_str_in in Hz as [<-|Hz]; [|exact (ssorted_head_lt _ _ Hs _ Hz)].
  destruct (str_ltb_trichotomy s y) as [E|[H|H]]; congruence.
Qed.

Lemma sort_dedup_sorted l : ssorted (sort_dedup l).
Proof.
  induction l as [|x l IH]; cbn [sort_dedup fold_right]; [constructor | apply insert_str_sorted, IH].
Qed.

Lemma sort_dedup_in l x : In x (sort_dedup l) <-> In x l.
Proof.
  induction l as [|y l IH]; cbn [sort_dedup fold_right]; [reflexivity|].
  rewrite insert_str_in. cbn [In]. fold (sort_dedup l). rewrite IH. reflexivity.
Qed.

Lemma ssorted_ext : forall l l', ssorted l -> ssorted l' -> (forall x, In x l <-> In x l') -> l = l'.
Proof.
  induction l as [|a l IH]; intros [|b l'] Hs Hs' Hin.
  - reflexivity.
  - exfalso. apply (proj2 (Hin b)). left; reflexivity.
  - exfalso. apply (proj1 (Hin a)). left; reflexivity.
  - assert (Hab : a = b).
    { destruct (proj1 (Hin a) (or_introl eq_refl)) as [->|Ha]; [reflexivity|].
      destruct (proj2 (Hin b) (or_introl eq_refl)) as [->|Hb]; [reflexivity|].
      pose proof (ssorted_head_lt _ _ Hs' _ Ha) as H1.
      pose proof (ssorted_head_lt _ _ Hs _ Hb) as H2.
      rewrite (str_ltb_asym _ _ H1) in H2. discriminate. }
    subst b. f_equal. apply IH; [eapply ssorted_tail; eassumption | eapply ssorted_tail; eassumption|].
    intros x. split; intros Hx.
    + destruct (proj1 (Hin x) (or_intror Hx)) as [<-|H]; [|exact H].
      pose proof (ssorted_head_lt _ _ Hs _ Hx) as H1. rewrite str_ltb_irrefl in H1. discriminate.
    + destruct (proj2 (Hin x) (or_intror Hx)) as [<-|H]; [|exact H].
      pose proof (ssorted_head_lt _ _ Hs' _ Hx) as H1. rewrite str_ltb_irrefl in H1. discriminate.
Qed.

Theorem sort_dedup_order_independent l l' :
  (forall x, In x l <-> In x l') -> sort_dedup l = sort_dedup l'.
Proof.
  intros H. apply ssorted_ext; try apply sort_dedup_sorted.
  intros x. rewrite !sort_dedup_in. apply H.
Qed.

Corollary sort_dedup_permutation l l' : Permutation l l' -> sort_dedup l = sort_dedup l'.
Proof.
  intros Hp. apply sort_dedup_order_independent. intros x. split; apply Permutation_in; [exact Hp | apply Permutation_sym; exact Hp].
Qed.
