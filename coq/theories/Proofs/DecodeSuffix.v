(** On success the remainder returned by the emitted [decode] is a suffix of the
    input: consumed ++ remainder = input.  For every description, every byte string. *)
From Coq Require Import NArith List String.
From Coq Require Import Strings.Byte.
From PDL Require Import Base.Outcome Lang.Ast Lang.Sexp Analyzer.Schema Sem.RefEncode Rust.Decode
     Proofs.DecodeSteps.
Import ListNotations.
Open Scope N_scope.

Definition suffix (a b : list byte) : Prop := exists c, b = (c ++ a)%list.

Lemma suffix_refl a : suffix a a.
Proof. exists []. reflexivity. Qed.

Lemma suffix_trans a b c : suffix a b -> suffix b c -> suffix a c.
Proof. intros [x Hx] [y Hy]. exists (y ++ x)%list. subst. now rewrite app_assoc. Qed.

Lemma suffix_skipn n l : suffix (skipn n l) l.
Proof. exists (firstn n l). symmetry. apply firstn_skipn. Qed.

Lemma suffix_nil l : suffix [] l.
Proof. exists l. now rewrite app_nil_r. Qed.

Lemma get_uint_suffix e w sp x sp' : get_uint e w sp = Ok (x, sp') -> suffix sp' sp.
Proof. intros H. apply get_uint_ok in H. destruct H as (_ & _ & ->). apply suffix_skipn. Qed.

Lemma advance_suffix n sp sp' : advance n sp = Ok sp' -> suffix sp' sp.
Proof. unfold advance. intros H. ok_step H. inversion H. apply suffix_skipn. Qed.

Lemma split_at_suffix n sp h t : split_at n sp = Ok (h, t) -> suffix t sp.
Proof. unfold split_at. intros H. ok_step H. inversion H. apply suffix_skipn. Qed.

Lemma slice_from_suffix n sp sp' : slice_from n sp = Ok sp' -> suffix sp' sp.
Proof. unfold slice_from. intros H. ok_step H. inversion H. apply suffix_skipn. Qed.

Definition pe_suffix (pe : list byte -> dres (value * list byte)) : Prop :=
  forall sp v sp', pe sp = Ok (v, sp') -> suffix sp' sp.

Lemma loop_while_suffix pe lf : pe_suffix pe ->
  forall sp acc vs sp', loop_while pe lf sp acc = Ok (vs, sp') -> suffix sp' sp.
Proof.
  intros Hpe. induction lf as [|lf IH]; intros [|b sp] acc vs sp' H; cbn [loop_while] in H;
    try discriminate; try (inversion H; apply suffix_refl).
  ok_step H. destruct a as [v r]. eapply suffix_trans; [eapply IH; exact H | eapply Hpe; exact E].
Qed.

Lemma loop_count_suffix pe lf : pe_suffix pe ->
  forall n sp acc vs sp', loop_count pe lf n sp acc = Ok (vs, sp') -> suffix sp' sp.
Proof.
  intros Hpe. induction lf as [|lf IH]; intros n sp acc vs sp' H; cbn [loop_count] in H;
    destruct (n =? 0); try discriminate; try (inversion H; apply suffix_refl).
  ok_step H. destruct a as [v r]. eapply suffix_trans; [eapply IH; exact H | eapply Hpe; exact E].
Qed.

Create HintDb suffix discriminated.
#[local] Hint Resolve suffix_refl suffix_nil get_uint_suffix advance_suffix split_at_suffix
  slice_from_suffix : suffix.

Section Fields.
  Variable oc : bool.
  Variable fl : file.
  Variable sch : schema.
  Variable rec : string -> list byte -> dres (value * list byte).
  Variable lf : nat.
  Hypothesis Hrec : forall tid, pe_suffix (rec tid).

  Lemma parse_element_suffix w t : pe_suffix (parse_element fl rec w t).
  Proof.
    intros sp v sp' H. unfold parse_element in H.
    repeat ok_step H; try (inversion H; subst; eauto with suffix); eapply Hrec; exact H.
  Qed.

  Lemma arr_elems_suffix w t st ew shape work vs work' :
    arr_elems oc lf (parse_element fl rec w t) st ew shape work = Ok (vs, work') ->
    suffix work' work.
  Proof.
    pose proof (loop_count_suffix _ lf (parse_element_suffix w t)) as Hlc.
    pose proof (loop_while_suffix _ lf (parse_element_suffix w t)) as Hlw.
    intros H. destruct ew, shape; cbn [arr_elems] in H;
      repeat ok_step H; injection H as <- <-; eauto with suffix.
  Qed.

  Lemma add_array_field_suffix d st id w t sz pad st' :
    add_array_field oc fl sch rec lf d st id w t sz pad = Ok st' ->
    suffix (st_span st') (st_span st).
  Proof.
    intros H. apply add_array_field_ok in H.
    destruct H as (ew & shape & work & after & padded & vs & work' & Hw & He & ->).
    cbn [st_span add_val set_span]. apply arr_elems_suffix in He.
    (* padded: the span afterwards is the tail of the split *)
    destruct pad; cbn [arr_work] in Hw; repeat ok_step Hw; injection Hw as <- <- <-; eauto with suffix.
  Qed.

  Lemma add_optional_field_suffix st f c st' :
    add_optional_field fl rec st f c = Ok st' -> suffix (st_span st') (st_span st).
  Proof.
    unfold add_optional_field. intros H.
    repeat ok_step H; injection H as <-; cbn [st_span add_val set_span];
      try (eapply Hrec; eassumption); eauto with suffix.
  Qed.

  Lemma dec_chunk_suffix d st chunk shift st' :
    dec_chunk fl sch d st chunk shift = Ok st' -> suffix (st_span st') (st_span st).
  Proof. intros H. apply dec_chunk_span in H. destruct H as [_ ->]. apply suffix_skipn. Qed.

  Lemma dec_other_suffix d pad st fd shift st' :
    dec_other oc fl sch rec lf d pad st fd shift = Ok st' -> suffix (st_span st') (st_span st).
  Proof.
    destruct fd; cbn [dec_other]; intros H; try discriminate;
      try (eapply add_array_field_suffix; eassumption);
      unfold add_typedef_field, add_payload_field in H;
      repeat ok_step H; injection H as <-; cbn [st_span add_val set_payload set_span];
      try (eapply Hrec; eassumption); eauto with suffix.
  Qed.

  Lemma dec_field_suffix d pad f st chunk shift st' chunk' shift' :
    dec_field oc fl sch rec lf d pad f st chunk shift = Ok (st', chunk', shift') ->
    suffix (st_span st') (st_span st).
  Proof.
    unfold dec_field. intros H. repeat ok_step H; injection H as <- <- <-;
      eauto using add_optional_field_suffix, dec_chunk_suffix, dec_other_suffix with suffix.
  Qed.

  Lemma dec_fields_suffix d : forall fs st chunk shift st',
    dec_fields oc fl sch rec lf d fs st chunk shift = Ok st' -> suffix (st_span st') (st_span st).
  Proof.
    induction fs as [|f rest IH]; intros st chunk shift st' H.
    - inversion H. apply suffix_refl.
    - rewrite dec_fields_cons in H. ok_step H. destruct a as [[st1 chunk1] shift1].
      eapply suffix_trans; [eapply IH; exact H | eapply dec_field_suffix; exact E].
  Qed.
End Fields.

Lemma rec_of_suffix fl self : (forall d, pe_suffix (self d)) -> forall t, pe_suffix (rec_of self fl t).
Proof.
  intros Hs t sp v sp' H. unfold rec_of in H.
  repeat ok_step H; try (eapply Hs; exact H). inversion H; subst. eauto with suffix.
Qed.

Theorem rust_dec_decl_suffix oc fl sch : forall fuel d bs v rest,
  rust_dec_decl fuel oc fl sch d bs = Ok (v, rest) -> suffix rest bs.
Proof.
  induction fuel as [|fuel IH]; intros d bs v rest H; [discriminate|].
  rewrite rust_dec_decl_S in H. destruct (get_parent fl d) as [p|].
  - repeat ok_step H. inversion H; subst. eapply IH; eassumption.
  - repeat ok_step H. inversion H; subst.
    exact (dec_fields_suffix oc fl sch _ fuel (rec_of_suffix fl _ IH) d _ (init_state bs) _ _ _ E).
Qed.

Corollary rust_decode_suffix fuel oc fl sch id bs v rest :
  rust_decode fuel oc fl sch id bs = Ok (v, rest) -> exists consumed, bs = (consumed ++ rest)%list.
Proof. rewrite rust_decode_rec_of. apply rec_of_suffix. intros d. exact (rust_dec_decl_suffix oc fl sch fuel d). Qed.
