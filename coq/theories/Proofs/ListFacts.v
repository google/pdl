(** Facts about [find], [flat_map] and [assoc] that the standard library lacks, and lookups
    of declarations by identifier. *)
From Coq Require Import List String Permutation.
From PDL Require Import Lang.Ast Lang.Sexp.
Import ListNotations.

Lemma find_app {A} (f : A -> bool) l1 l2 :
  find f (l1 ++ l2) = match find f l1 with Some a => Some a | None => find f l2 end.
Proof. induction l1 as [|a l1 IH]; cbn [app find]; [reflexivity|]. destruct (f a); auto. Qed.

Lemma find_none_iff {A} (f : A -> bool) l :
  find f l = None <-> forall x, In x l -> f x = false.
Proof.
  split; [apply find_none|]. induction l as [|a l IH]; intros H; [reflexivity|]. cbn [find].
  rewrite (H a (or_introl eq_refl)). apply IH. intros x Hx. apply H. right. exact Hx.
Qed.

Lemma find_unique {A} (f : A -> bool) l x :
  In x l -> f x = true -> (forall y, In y l -> f y = true -> y = x) -> find f l = Some x.
Proof.
  induction l as [|a l IH]; intros Hin Hfx Huniq; [destruct Hin|].
  cbn [find]. destruct (f a) eqn:Efa.
  - f_equal. apply Huniq; [left; reflexivity | exact Efa].
  - destruct Hin as [->|Hin]; [congruence|].
    apply IH; [exact Hin | exact Hfx|]. intros y Hy. apply Huniq. right; exact Hy.
Qed.

Lemma find_perm {A} (f : A -> bool) l l' :
  Permutation l l' ->
  (forall x y, In x l -> In y l -> f x = true -> f y = true -> x = y) ->
  find f l = find f l'.
Proof.
  intros Hp Hu. destruct (find f l) as [x|] eqn:E.
  - apply find_some in E as [Hin Hf]. symmetry. apply find_unique; [|exact Hf|].
    + eapply Permutation_in; eassumption.
    + intros y Hy Hfy. apply (Permutation_in _ (Permutation_sym Hp)) in Hy. now apply Hu.
  - symmetry. apply find_none_iff. intros y Hy.
    apply (Permutation_in _ (Permutation_sym Hp)) in Hy. exact (find_none _ _ E _ Hy).
Qed.

Lemma find_filter_same {A} (g h : A -> bool) (l : list A) :
  (forall x, g x = true -> h x = true) ->
  find g (filter h l) = find g l.
Proof.
  intros Hgh. induction l as [|a l IH]; [reflexivity|].
  cbn [filter find]. destruct (g a) eqn:Ega.
  - rewrite (Hgh a Ega). cbn [find]. rewrite Ega. reflexivity.
  - destruct (h a); [cbn [find]; rewrite Ega|]; exact IH.
Qed.

Lemma flat_map_nil {A B} (f : A -> list B) l : flat_map f l = [] <-> forall x, In x l -> f x = [].
Proof.
  induction l as [|a l IH]; cbn [flat_map]; [split; [intros _ x []|reflexivity]|].
  split.
  - intros H. apply app_eq_nil in H. destruct H as [Ha Hl]. intros x [<-|Hx]; [exact Ha | now apply IH].
  - intros H. rewrite (H a (or_introl eq_refl)). cbn. apply IH. intros x Hx. apply H. right; exact Hx.
Qed.

Lemma assoc_app_some {A} (k : string) (l r : list (string * A)) (v : A) :
  assoc k l = Some v -> assoc k (l ++ r) = Some v.
Proof.
  induction l as [|[k' v'] l IH]; intros Hl; [discriminate|].
  cbn [app assoc] in *. destruct (String.eqb k k'); [exact Hl|exact (IH Hl)].
Qed.

Lemma assoc_in_keys {A} id (l : list (string * A)) x : assoc id l = Some x -> In id (map fst l).
Proof.
  induction l as [|[k v] l IH]; cbn [assoc map fst]; [discriminate|].
  destruct (String.eqb_spec id k) as [->|_]; [left; reflexivity | right; auto].
Qed.

Lemma in_map_snd {A B} (l : list (A * B)) y : In y (map snd l) <-> exists x, In (x, y) l.
Proof.
  rewrite in_map_iff. split.
  - intros [[x y'] [<- Hin]]. exists x. exact Hin.
  - intros [x Hin]. exists (x, y). split; [reflexivity | exact Hin].
Qed.

Lemma assoc_nodup {A} (l : list (string * A)) k v :
  NoDup (map fst l) -> In (k, v) l -> assoc k l = Some v.
Proof.
  induction l as [|[k' v'] l IH]; intros Hnd Hin; [contradiction|].
  inversion Hnd as [|? ? Hni Hnd']; subst. cbn [assoc].
  destruct Hin as [[= -> ->] | Hin]; [now rewrite String.eqb_refl|].
  destruct (String.eqb_spec k k') as [->|_]; [|now apply IH].
  destruct Hni. exact (in_map fst _ _ Hin).
Qed.

Lemma has_id_spec tid d : has_id tid d = true <-> decl_id d = Some tid.
Proof.
  unfold has_id. destruct (decl_id d) as [i|]; [|split; discriminate].
  rewrite String.eqb_eq. split; [intros ->; reflexivity | intros H; inversion H; reflexivity].
Qed.

Lemma lookup_decl_id fl tid d : lookup_decl fl tid = Some d -> decl_id d = Some tid.
Proof.
  unfold lookup_decl. intros H. apply find_some in H. destruct H as [_ H]. now apply has_id_spec.
Qed.

Lemma lookup_decl_In fl tid d : lookup_decl fl tid = Some d -> In d (f_decls fl).
Proof.
  unfold lookup_decl. intros H. apply find_some in H. destruct H as [H _]. now apply in_rev.
Qed.

Lemma lookup_decl_forallb (P : decl -> bool) fl :
  forallb P (f_decls fl) = true -> forall t d, lookup_decl fl t = Some d -> P d = true.
Proof.
  intros H t d Hl. rewrite forallb_forall in H. apply H, (lookup_decl_In _ _ _ Hl).
Qed.

Lemma forallb_decl_fields (P : field -> bool) fl d f :
  forallb (fun d => forallb P (decl_fields d)) (f_decls fl) = true ->
  In d (f_decls fl) -> In f (decl_fields d) -> P f = true.
Proof.
  intros H Hd Hf. rewrite forallb_forall in H. specialize (H d Hd). cbv beta in H.
  rewrite forallb_forall in H. exact (H f Hf).
Qed.

Lemma get_parent_In fl d p : get_parent fl d = Some p -> In p (f_decls fl).
Proof.
  unfold get_parent. destruct (decl_parent_id d) as [pid|]; [|discriminate].
  apply lookup_decl_In.
Qed.
