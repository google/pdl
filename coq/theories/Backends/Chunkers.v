(** The bit-field grouping every backend re-implements by hand:
      Rust    FieldParser::add_bit_field / Encoder::encode_bit_field  (shift, chunk)
      Python  parse_bit_field / serialize_bit_field                    (shift, chunk)
      C++     FieldParser / FieldSerializer                            (shift, chunk)
      Java    common::alignment::ByteAligner                           (staged_fields, staged_width)
    modelled on the list of field widths, and the reference grouping: a group is a
    maximal run of bit-fields that ends at the first byte boundary; the offset of a
    field is the sum of the widths before it in its group.
    These are free-standing transcriptions: nothing here is extracted or run against a
    backend, and no lemma relates [ref_groups] to the grouping inside
    [Sem.RefEncode.ref_enc_fields]. *)
From Coq Require Import NArith List Bool Lia.
From PDL Require Import Base.Bits.
Import ListNotations.
Open Scope N_scope.

(** A group: the (offset, width) of its fields, LSB first. *)
Definition group := list (N * N).

(** ** The reference grouping (doc/reference.md: "grouped together to the next byte boundary") *)
Fixpoint ref_groups (ws : list N) (cur : group) (off : N) : list group * group :=
  match ws with
  | [] => ([], cur)
  | w :: rest =>
      let cur' := (cur ++ [(off, w)])%list in
      if (off + w) mod 8 =? 0
      then let (gs, pend) := ref_groups rest [] 0 in (cur' :: gs, pend)
      else ref_groups rest cur' (off + w)
  end.

(** ** Rust (decoder.rs 140-282, encoder.rs 230-529), Python (python.rs 777-861, 1419-1546)
    and C++ (cxx.rs 370-400, 1335-1530): push (shift, field); shift += width; when
    shift is a multiple of 8 the chunk is drained and shift reset. *)
Fixpoint shift_chunker (ws : list N) (chunk : group) (shift : N) : list group * group :=
  match ws with
  | [] => ([], chunk)
  | w :: rest =>
      let chunk' := (chunk ++ [(shift, w)])%list in
      let shift' := shift + w in
      if negb (shift' mod 8 =? 0) then shift_chunker rest chunk' shift'
      else let (gs, pend) := shift_chunker rest [] 0 in (chunk' :: gs, pend)
  end.

Definition rust_chunker := shift_chunker.
Definition python_chunker := shift_chunker.
Definition cxx_chunker := shift_chunker.

(** ** Java: ByteAligner::add_bitfield / try_commit_staged_chunk. [None] = the panic when
    the staged width grows beyond MAX_CHUNK_WIDTH = 64. *)
Fixpoint java_aligner (ws : list N) (staged : group) (staged_width : N) : option (list group * group) :=
  match ws with
  | [] => Some ([], staged)
  | w :: rest =>
      let staged' := (staged ++ [(staged_width, w)])%list in
      let width' := staged_width + w in
      if 64 <? width' then None
      else if negb (width' =? 0) && (width' mod 8 =? 0) then
        match java_aligner rest [] 0 with
        | Some (gs, pend) => Some (staged' :: gs, pend)
        | None => None
        end
      else java_aligner rest staged' width'
  end.

Theorem shift_chunker_is_reference ws : forall cur off,
  shift_chunker ws cur off = ref_groups ws cur off.
Proof.
  induction ws as [|w rest IH]; intros cur off; cbn [shift_chunker ref_groups]; [reflexivity|].
  destruct ((off + w) mod 8 =? 0); cbn [negb]; rewrite IH; reflexivity.
Qed.

Fixpoint group_width (g : group) : N :=
  match g with [] => 0 | (_, w) :: rest => w + group_width rest end.

(** no group of the reference, completed or still pending, is wider than [m] bits *)
Fixpoint groups_within (m : N) (ws : list N) (off : N) : bool :=
  match ws with
  | [] => true
  | w :: rest =>
      (off + w <=? m) &&
      (if (off + w) mod 8 =? 0 then groups_within m rest 0 else groups_within m rest (off + w))
  end.

Theorem java_aligner_is_reference ws : forall cur off,
  Forall (fun w => 0 < w) ws ->
  groups_within 64 ws off = true ->
  java_aligner ws cur off = Some (ref_groups ws cur off).
Proof.
  induction ws as [|w rest IH]; intros cur off Hpos Hin; cbn [java_aligner ref_groups]; [reflexivity|].
  inversion Hpos as [|? ? Hw Hrest]; subst.
  cbn [groups_within] in Hin. apply andb_prop in Hin. destruct Hin as [Hle Hin].
  assert (E1 : (64 <? off + w) = false) by lia. rewrite E1.
  assert (E2 : (off + w =? 0) = false) by lia. rewrite E2. cbn [negb andb].
  destruct ((off + w) mod 8 =? 0).
  - rewrite (IH [] 0 Hrest Hin). destruct (ref_groups rest [] 0). reflexivity.
  - apply IH; assumption.
Qed.

Fixpoint offsets_ok (g : group) (off : N) : bool :=
  match g with
  | [] => true
  | (o, w) :: rest => (o =? off) && offsets_ok rest (off + w)
  end.

Lemma offsets_ok_app g1 g2 off :
  offsets_ok (g1 ++ g2) off = offsets_ok g1 off && offsets_ok g2 (off + group_width g1).
Proof.
  revert off. induction g1 as [|[o w] g1 IH]; intros off; cbn [app offsets_ok group_width].
  - now rewrite N.add_0_r.
  - rewrite IH. rewrite andb_assoc. do 2 f_equal. lia.
Qed.

Lemma group_width_app g1 g2 : group_width (g1 ++ g2) = group_width g1 + group_width g2.
Proof.
  induction g1 as [|[o w] g1 IH]; cbn [app group_width]; [reflexivity|].
  rewrite IH. lia.
Qed.

Theorem ref_groups_wellformed ws : forall cur off gs pend,
  offsets_ok cur 0 = true -> group_width cur = off ->
  ref_groups ws cur off = (gs, pend) ->
  Forall (fun g => offsets_ok g 0 = true /\ group_width g mod 8 = 0) gs
  /\ offsets_ok pend 0 = true.
Proof.
  induction ws as [|w rest IH]; intros cur off gs pend Hok Hw H; cbn [ref_groups] in H.
  - inversion H; subst. split; [constructor | exact Hok].
  - assert (Hok' : offsets_ok (cur ++ [(off, w)]) 0 = true).
    { rewrite offsets_ok_app, Hok. cbn [offsets_ok andb]. rewrite N.add_0_l, Hw, N.eqb_refl. reflexivity. }
    assert (Hw' : group_width (cur ++ [(off, w)]) = off + w).
    { rewrite group_width_app, Hw. cbn. lia. }
    destruct ((off + w) mod 8 =? 0) eqn:E.
    + destruct (ref_groups rest [] 0) as [gs' pend'] eqn:Er. inversion H; subst.
      destruct (IH [] 0 gs' pend eq_refl eq_refl Er) as [Hgs Hp].
      split; [|exact Hp]. constructor; [|exact Hgs].
      split; [exact Hok'|]. rewrite Hw'. now apply N.eqb_eq.
    + eapply IH; eassumption.
Qed.

Lemma shift_chunker_wellformed ws gs pend :
  shift_chunker ws [] 0 = (gs, pend) ->
  Forall (fun g => offsets_ok g 0 = true /\ group_width g mod 8 = 0) gs.
Proof.
  rewrite shift_chunker_is_reference. intros H.
  exact (proj1 (ref_groups_wellformed ws [] 0 gs pend eq_refl eq_refl H)).
Qed.

Theorem ref_groups_partition ws : forall cur off gs pend,
  ref_groups ws cur off = (gs, pend) ->
  map snd (List.concat gs ++ pend) = (map snd cur ++ ws)%list.
Proof.
  induction ws as [|w rest IH]; intros cur off gs pend H; cbn [ref_groups] in H.
  - inversion H; subst. cbn. now rewrite app_nil_r.
  - destruct ((off + w) mod 8 =? 0).
    + destruct (ref_groups rest [] 0) as [gs' pend'] eqn:Er. inversion H; subst.
      specialize (IH [] 0 gs' pend Er). cbn [List.concat]. rewrite <- app_assoc, map_app, IH.
      rewrite map_app. cbn. now rewrite <- app_assoc.
    + rewrite (IH _ _ _ _ H). rewrite map_app. cbn. now rewrite <- app_assoc.
Qed.
